(* The attribute bookkeeping model (Meta.v: meta_ss, driven by the GENERATED token table) equals the
   structural specification (Meta.v: spec_of, built from the generic traversal any_e / any_ss). *)
From Coq Require Import ZArith NArith List Bool String Ascii Lia Btauto.
From RZ.model Require Import Ast Meta.
From RZ.gen Require Import MetaTables.
Import ListNotations.
Local Open Scope string_scope.
Local Open Scope list_scope.

(* The Scheme-generated ast_mutind gives no hypothesis for children that sit under `option`
   (SIf's else branch, SFor's step, SDecl's initialiser, SReturn's value), so we derive a
   principle that does. *)
Section StrongInd.
  Variables (P : cexpr -> Prop) (Pes : cexprs -> Prop) (Ps : cstmt -> Prop) (Pss : cstmts -> Prop).
  Definition kids_e_ok (e : cexpr) : Prop :=
    match e with
    | ECast _ a | EUn _ a | EPost _ a | EMember a _ | EPtrMember a _ | ECallEmpty a => P a
    | EBin _ a b | EComma a b | EIndex a b | EAssign _ a b => P a /\ P b
    | ECond a b c => P a /\ P b /\ P c
    | ECall _ l | EMacro _ l | ELoad _ _ l => Pes l
    | EStmtExpr l s => Pss l /\ Ps s
    | _ => True
    end.
  Definition kids_s_ok (s : cstmt) : Prop :=
    match s with
    | SExpr e | SDecl _ _ (Some e) | SReturn (Some e) | SJump e => P e
    | SIf c t None => P c /\ Ps t
    | SIf c t (Some e) => P c /\ Ps t /\ Ps e
    | SFor i c (Some st) b => Ps i /\ Ps c /\ P st /\ Ps b
    | SFor i c None b => Ps i /\ Ps c /\ Ps b
    | SBlock l => Pss l
    | SStore _ _ l => Pes l
    | SLabel _ s | SCase s => Ps s
    | SWhile c b | SDo b c | SSwitch c b => P c /\ Ps b
    | _ => True
    end.
  Hypothesis He : forall e, kids_e_ok e -> P e.
  Hypothesis Hen : Pes ENil.
  Hypothesis Hec : forall e t, P e -> Pes t -> Pes (ECons e t).
  Hypothesis Hs : forall s, kids_s_ok s -> Ps s.
  Hypothesis Hsn : Pss SNil.
  Hypothesis Hsc : forall s t, Ps s -> Pss t -> Pss (SCons s t).

  Lemma ast_strong_e : forall e, P e
  with ast_strong_es : forall l, Pes l
  with ast_strong_s : forall s, Ps s
  with ast_strong_ss : forall l, Pss l.
  Proof.
    - intros e. apply He. destruct e; cbn [kids_e_ok]; repeat split; auto.
    - intros l. destruct l; [apply Hen | apply Hec; auto].
    - intros s. apply Hs.
      destruct s; try match goal with o : option _ |- _ => destruct o end; cbn [kids_s_ok]; repeat split; auto.
    - intros l. destruct l; [apply Hsn | apply Hsc; auto].
  Qed.

  Lemma ast_strong_ind : (forall e, P e) /\ (forall l, Pes l) /\ (forall s, Ps s) /\ (forall l, Pss l).
  Proof. repeat split; [apply ast_strong_e | apply ast_strong_es | apply ast_strong_s | apply ast_strong_ss]. Qed.
End StrongInd.

(* the token table, token by token *)
Lemma tok_new_reg b n f : token_effect "new_reg" b n f = upd f "f_new". Proof. reflexivity. Qed.
Lemma tok_explicit_reg b n f : token_effect "explicit_reg" b n f = if b then upd f "f_new" else f. Proof. reflexivity. Qed.
Lemma tok_jump b n f : token_effect "jump" b n f = upd f "f_branch". Proof. reflexivity. Qed.
Lemma tok_mem_load b n f : token_effect "mem_load" b n f = upd f "f_memr". Proof. reflexivity. Qed.
Lemma tok_mem_store b n f : token_effect "mem_store" b n f = upd f "f_memw". Proof. reflexivity. Qed.
Lemma tok_selection_stmt b n f : token_effect "selection_stmt" b n f = upd f "f_cond". Proof. reflexivity. Qed.
Lemma tok_pred_write b n f : token_effect "pred_write" b n f = add_pred (upd f "f_wpred") n. Proof. reflexivity. Qed.

Definition inrange (n : Z) : bool := ((0 <=? n) && (n <? 4))%Z.
Definition has (m : Z) (f : mflags) : bool := existsb (Z.eqb m) (f_preds f).

Lemma add_pred_flags f n :
  f_cond (add_pred f n) = f_cond f /\ f_new (add_pred f n) = f_new f /\ f_memw (add_pred f n) = f_memw f
  /\ f_memr (add_pred f n) = f_memr f /\ f_branch (add_pred f n) = f_branch f /\ f_wpred (add_pred f n) = f_wpred f.
Proof. unfold add_pred. destruct (_ && _); cbn; repeat split. Qed.
Lemma add_pred_cond f n : f_cond (add_pred f n) = f_cond f. Proof. apply add_pred_flags. Qed.
Lemma add_pred_new f n : f_new (add_pred f n) = f_new f. Proof. apply add_pred_flags. Qed.
Lemma add_pred_memw f n : f_memw (add_pred f n) = f_memw f. Proof. apply add_pred_flags. Qed.
Lemma add_pred_memr f n : f_memr (add_pred f n) = f_memr f. Proof. apply add_pred_flags. Qed.
Lemma add_pred_branch f n : f_branch (add_pred f n) = f_branch f. Proof. apply add_pred_flags. Qed.
Lemma add_pred_wpred f n : f_wpred (add_pred f n) = f_wpred f. Proof. apply add_pred_flags. Qed.

(* add_pred f k appends k exactly when k is in range and not yet listed: m is listed afterwards iff it was, or it is k
   and in range (cases: k in range or not, k listed or not, k = m or not) *)
Lemma has_add_pred m f k : has m (add_pred f k) = has m f || (inrange m && Z.eqb k m).
Proof.
  unfold has, add_pred. fold (inrange k).
  destruct (inrange k) eqn:Hr; destruct (existsb (Z.eqb k) (f_preds f)) eqn:Hex; cbn [andb negb f_preds];
    destruct (Z.eqb_spec k m) as [E|E]; try subst m;
    rewrite ?existsb_app, ?Hr, ?Hex, ?andb_false_r, ?orb_false_r; cbn [existsb andb orb];
    rewrite ?Z.eqb_refl, ?orb_false_r, ?orb_true_r; try reflexivity.
  destruct (Z.eqb_spec m k) as [E'|E']; [congruence | rewrite orb_false_r; reflexivity].
Qed.
Lemma has_upd m f w : has m (upd f w) = has m f. Proof. reflexivity. Qed.

Lemma has_in m f : has m f = true <-> In m (f_preds f).
Proof.
  unfold has. rewrite existsb_exists. split.
  - intros (x & Hx & E). apply Z.eqb_eq in E. subst. assumption.
  - intros H. exists m. split; [assumption | apply Z.eqb_refl].
Qed.

(* what a node contributes itself, after its children *)
Definition own_e (e : cexpr) (f : mflags) : mflags :=
  match e with
  | EOp o => meta_operand o f
  | EAssign _ l _ => match pred_dest l with Some n => fire "assignment_expr" "pred_write" false n f | None => f end
  | ELoad _ _ _ => fire "mem_load" "mem_load" false 0 f
  | _ => f
  end.
Definition own_s (s : cstmt) (f : mflags) : mflags :=
  match s with
  | SJump _ => fire "jump" "jump" false 0 f
  | SIf _ _ _ => fire "selection_stmt" "selection_stmt" false 0 f
  | SStore _ _ _ => fire "mem_store" "mem_store" false 0 f
  | _ => f
  end.

(* with the call sites and the token table as they are (both are evaluated here), a node's contribution is a flag update *)
Lemma own_e_eq e f : own_e e f =
  match e with
  | EOp o => if is_new_operand o then upd f "f_new" else f
  | EAssign _ l _ => match pred_dest l with Some n => add_pred (upd f "f_wpred") n | None => f end
  | ELoad _ _ _ => upd f "f_memr"
  | _ => f
  end.
Proof. destruct e; try reflexivity. destruct o as [| |? []|? []| | | | |]; reflexivity. Qed.
Lemma own_s_eq s f : own_s s f =
  match s with
  | SJump _ => upd f "f_branch"
  | SIf _ _ _ => upd f "f_cond"
  | SStore _ _ _ => upd f "f_memw"
  | _ => f
  end.
Proof. destruct s; reflexivity. Qed.

(* meta_e / any_e one constructor deep: the children first, then the node itself *)
Lemma meta_e_eq e f : meta_e e f = own_e e
  match e with
  | ECast _ a | EUn _ a | EPost _ a | EMember a _ | EPtrMember a _ | ECallEmpty a => meta_e a f
  | EBin _ a b | EComma a b | EIndex a b | EAssign _ a b => meta_e b (meta_e a f)
  | ECond a b c => meta_e c (meta_e b (meta_e a f))
  | ECall _ l | EMacro _ l | ELoad _ _ l => meta_es l f
  | EStmtExpr l s => meta_s s (meta_ss l f)
  | _ => f
  end.
Proof. destruct e; reflexivity. Qed.
Lemma meta_s_eq s f : meta_s s f = own_s s
  match s with
  | SExpr e | SDecl _ _ (Some e) | SReturn (Some e) | SJump e => meta_e e f
  | SIf c t None => meta_s t (meta_e c f)
  | SIf c t (Some e) => meta_s e (meta_s t (meta_e c f))
  | SFor i c (Some st) b => meta_s b (meta_e st (meta_s c (meta_s i f)))
  | SFor i c None b => meta_s b (meta_s c (meta_s i f))
  | SBlock l => meta_ss l f
  | SStore _ _ l => meta_es l f
  | SLabel _ s | SCase s => meta_s s f
  | _ => f
  end.
Proof. destruct s; try match goal with o : option _ |- _ => destruct o end; reflexivity. Qed.
Lemma meta_es_cons e t f : meta_es (ECons e t) f = meta_es t (meta_e e f). Proof. reflexivity. Qed.
Lemma meta_ss_cons s t f : meta_ss (SCons s t) f = meta_ss t (meta_s s f). Proof. reflexivity. Qed.
Lemma any_e_eq pe ps e : any_e pe ps e =
  pe e ||
  match e with
  | ECast _ a | EUn _ a | EPost _ a | EMember a _ | EPtrMember a _ | ECallEmpty a => any_e pe ps a
  | EBin _ a b | EComma a b | EIndex a b | EAssign _ a b => any_e pe ps a || any_e pe ps b
  | ECond a b c => any_e pe ps a || any_e pe ps b || any_e pe ps c
  | ECall _ l | EMacro _ l | ELoad _ _ l => any_es pe ps l
  | EStmtExpr l s => any_ss pe ps l || any_s pe ps s
  | _ => false
  end.
Proof. destruct e; reflexivity. Qed.
Lemma any_s_eq pe ps s : any_s pe ps s =
  ps s ||
  match s with
  | SExpr e | SDecl _ _ (Some e) | SReturn (Some e) | SJump e => any_e pe ps e
  | SIf c t None => any_e pe ps c || any_s pe ps t
  | SIf c t (Some e) => any_e pe ps c || any_s pe ps t || any_s pe ps e
  | SFor i c (Some st) b => any_s pe ps i || any_s pe ps c || any_e pe ps st || any_s pe ps b
  | SFor i c None b => any_s pe ps i || any_s pe ps c || any_s pe ps b
  | SBlock l => any_ss pe ps l
  | SStore _ _ l => any_es pe ps l
  | SLabel _ s | SCase s => any_s pe ps s
  | _ => false
  end.
Proof. destruct s; try match goal with o : option _ |- _ => destruct o end; reflexivity. Qed.
Lemma any_es_cons pe ps e t : any_es pe ps (ECons e t) = any_e pe ps e || any_es pe ps t. Proof. reflexivity. Qed.
Lemma any_ss_cons pe ps s t : any_ss pe ps (SCons s t) = any_s pe ps s || any_ss pe ps t. Proof. reflexivity. Qed.

(* In a step of ast_strong_ind: one goal per shape of the node x, with IH : kids_e_ok x (or kids_s_ok x)
   taken apart into one hypothesis per child. *)
Ltac node_cases x IH :=
  destruct x; try match goal with o : option _ |- _ => destruct o end;
  cbn [kids_e_ok kids_s_ok] in IH;
  repeat match type of IH with _ /\ _ => let H := fresh IH in destruct IH as [H IH] end.
Ltac rew_ih := repeat match goal with H : forall f : mflags, _ = _ |- _ => rewrite H end.

(* generic accumulation: a boolean observation g of the flags that every node's own contribution
   turns on exactly when pe / ps holds at that node, is turned on by the traversal exactly when
   some node satisfies pe / ps. *)
Section Acc.
  Variable g : mflags -> bool.
  Variable pe : cexpr -> bool.
  Variable ps : cstmt -> bool.
  Hypothesis Hpe : forall e f, g (own_e e f) = g f || pe e.
  Hypothesis Hps : forall s f, g (own_s s f) = g f || ps s.

  Lemma acc :
    (forall e f, g (meta_e e f) = g f || any_e pe ps e) /\
    (forall l f, g (meta_es l f) = g f || any_es pe ps l) /\
    (forall s f, g (meta_s s f) = g f || any_s pe ps s) /\
    (forall l f, g (meta_ss l f) = g f || any_ss pe ps l).
  Proof.
    apply ast_strong_ind.
    - intros e IH f. rewrite meta_e_eq, Hpe, any_e_eq. node_cases e IH; rew_ih; btauto.
    - intros f. cbn. btauto.
    - intros e t IHe IHt f. rewrite meta_es_cons, any_es_cons. rew_ih. btauto.
    - intros s IH f. rewrite meta_s_eq, Hps, any_s_eq. node_cases s IH; rew_ih; btauto.
    - intros f. cbn. btauto.
    - intros s t IHs IHt f. rewrite meta_ss_cons, any_ss_cons. rew_ih. btauto.
  Qed.

  Lemma acc_ss p f : g (meta_ss p f) = g f || any_ss pe ps p.
  Proof. apply acc. Qed.
End Acc.

(* what every token preserves, the traversal preserves *)
Section Inv.
  Variable Q : mflags -> Prop.
  Hypothesis HQ : forall tok b n f, Q f -> Q (token_effect tok b n f).

  Lemma Q_fire cb tok b n f : Q f -> Q (fire cb tok b n f).
  Proof. intros H. unfold fire. destruct (sends cb tok); auto. Qed.
  Lemma Q_operand o f : Q f -> Q (meta_operand o f).
  Proof. intros H. destruct o; cbn [meta_operand]; auto using Q_fire. destruct (_ && _); auto. Qed.
  Lemma Q_own_e e f : Q f -> Q (own_e e f).
  Proof. intros H. destruct e; cbn [own_e]; auto using Q_fire, Q_operand. destruct (pred_dest _); auto using Q_fire. Qed.
  Lemma Q_own_s s f : Q f -> Q (own_s s f).
  Proof. intros H. destruct s; cbn [own_s]; auto using Q_fire. Qed.

  Lemma inv :
    (forall e f, Q f -> Q (meta_e e f)) /\
    (forall l f, Q f -> Q (meta_es l f)) /\
    (forall s f, Q f -> Q (meta_s s f)) /\
    (forall l f, Q f -> Q (meta_ss l f)).
  Proof.
    apply ast_strong_ind.
    - intros e IH f Hf. rewrite meta_e_eq. apply Q_own_e. node_cases e IH; auto 6.
    - intros f Hf. exact Hf.
    - intros e t IHe IHt f Hf. rewrite meta_es_cons. auto.
    - intros s IH f Hf. rewrite meta_s_eq. apply Q_own_s. node_cases s IH; auto 6.
    - intros f Hf. exact Hf.
    - intros s t IHs IHt f Hf. rewrite meta_ss_cons. auto.
  Qed.
End Inv.

Lemma any_scale (c : bool) pe ps :
  (forall e, any_e (fun e => c && pe e) (fun s => c && ps s) e = c && any_e pe ps e) /\
  (forall l, any_es (fun e => c && pe e) (fun s => c && ps s) l = c && any_es pe ps l) /\
  (forall s, any_s (fun e => c && pe e) (fun s => c && ps s) s = c && any_s pe ps s) /\
  (forall l, any_ss (fun e => c && pe e) (fun s => c && ps s) l = c && any_ss pe ps l).
Proof.
  destruct c.
  - repeat split; intros; reflexivity.
  - cbn [andb]. apply ast_strong_ind.
    + intros e IH. rewrite any_e_eq. node_cases e IH; rewrite ?IH, ?IH0, ?IH1; reflexivity.
    + reflexivity.
    + intros e t IHe IHt. rewrite any_es_cons, IHe, IHt. reflexivity.
    + intros s IH. rewrite any_s_eq. node_cases s IH; rewrite ?IH, ?IH0, ?IH1, ?IH2; reflexivity.
    + reflexivity.
    + intros s t IHs IHt. rewrite any_ss_cons, IHs, IHt. reflexivity.
Qed.

(* Names for the node predicates that model/Meta.v writes as anonymous functions inside contains_if, reads_new, ...:
   attrs_spec passes them to acc_ss and needs each convertible with its twin there (an edit of Meta.v must be repeated here). *)
Definition pe_new := fun e => match e with EOp o => is_new_operand o | _ => false end.
Definition pe_load := fun e => match e with ELoad _ _ _ => true | _ => false end.
Definition pe_wpred := fun e => match e with EAssign _ l _ => match pred_dest l with Some _ => true | None => false end | _ => false end.
Definition pe_num (n : Z) := fun e => match e with EAssign _ l _ => match pred_dest l with Some k => Z.eqb k n | None => false end | _ => false end.
Definition ps_if := fun s => match s with SIf _ _ _ => true | _ => false end.
Definition ps_store := fun s => match s with SStore _ _ _ => true | _ => false end.
Definition ps_jump := fun s => match s with SJump _ => true | _ => false end.

(* Node by node (x): the flag update of own_e_eq / own_s_eq, observed, against the node predicate.  Where a
   flag is updated, what is left holds by evaluating the comparison of two flag names. *)
Ltac own_tac x :=
  rewrite ?own_e_eq, ?own_s_eq; destruct x;
  unfold nope_e, nope_s, pe_new, pe_load, pe_wpred, pe_num, ps_if, ps_store, ps_jump;
  try destruct (is_new_operand _); try destruct (pred_dest _);
  rewrite ?add_pred_cond, ?add_pred_new, ?add_pred_memw, ?add_pred_memr, ?add_pred_branch, ?add_pred_wpred,
          ?has_add_pred, ?has_upd, ?andb_false_r;
  try reflexivity; symmetry; apply orb_false_r.

Lemma own_cond_e e f : f_cond (own_e e f) = f_cond f || nope_e e. Proof. own_tac e. Qed.
Lemma own_cond_s s f : f_cond (own_s s f) = f_cond f || ps_if s. Proof. own_tac s. Qed.
Lemma own_new_e e f : f_new (own_e e f) = f_new f || pe_new e. Proof. own_tac e. Qed.
Lemma own_new_s s f : f_new (own_s s f) = f_new f || nope_s s. Proof. own_tac s. Qed.
Lemma own_memw_e e f : f_memw (own_e e f) = f_memw f || nope_e e. Proof. own_tac e. Qed.
Lemma own_memw_s s f : f_memw (own_s s f) = f_memw f || ps_store s. Proof. own_tac s. Qed.
Lemma own_memr_e e f : f_memr (own_e e f) = f_memr f || pe_load e. Proof. own_tac e. Qed.
Lemma own_memr_s s f : f_memr (own_s s f) = f_memr f || nope_s s. Proof. own_tac s. Qed.
Lemma own_branch_e e f : f_branch (own_e e f) = f_branch f || nope_e e. Proof. own_tac e. Qed.
Lemma own_branch_s s f : f_branch (own_s s f) = f_branch f || ps_jump s. Proof. own_tac s. Qed.
Lemma own_wpred_e e f : f_wpred (own_e e f) = f_wpred f || pe_wpred e. Proof. own_tac e. Qed.
Lemma own_wpred_s s f : f_wpred (own_s s f) = f_wpred f || nope_s s. Proof. own_tac s. Qed.
Lemma own_has_e m e f : has m (own_e e f) = has m f || (inrange m && pe_num m e). Proof. own_tac e. Qed.
Lemma own_has_s m s f : has m (own_s s f) = has m f || (inrange m && nope_s s). Proof. own_tac s. Qed.

Lemma nodup_token tok b n f : NoDup (f_preds f) -> NoDup (f_preds (token_effect tok b n f)).
Proof.
  intros H. unfold token_effect, set_writes_mem, set_reads_mem, set_uses_new, set_branches, set_is_conditional, set_writes_pred.
  repeat match goal with |- context [if ?c then _ else _] => destruct c end; try exact H.
  unfold add_pred.
  destruct (_ && _) eqn:E; [| exact H].
  cbn [f_preds upd] in *. apply andb_prop in E. destruct E as [_ E].
  apply negb_true_iff in E.
  apply NoDup_rev in H. rewrite <- (rev_involutive (_ ++ _)). apply NoDup_rev. rewrite rev_app_distr. cbn.
  constructor; [| exact H].
  intros Hin. apply in_rev in Hin.
  assert (existsb (Z.eqb n) (f_preds f) = true) as E2
    by (apply existsb_exists; exists n; split; [assumption | apply Z.eqb_refl]).
  congruence.
Qed.

Lemma wpred_token tok b n f :
  (f_preds f <> [] -> f_wpred f = true) ->
  (f_preds (token_effect tok b n f) <> [] -> f_wpred (token_effect tok b n f) = true).
Proof.
  intros H. unfold token_effect, set_writes_mem, set_reads_mem, set_uses_new, set_branches, set_is_conditional, set_writes_pred.
  repeat match goal with |- context [if ?c then _ else _] => destruct c end; try exact H;
    try (cbn [upd f_preds f_wpred]; intros H1; rewrite (H H1); reflexivity).
  intros _. rewrite add_pred_wpred. cbn. apply orb_true_r.
Qed.

Theorem attrs_spec : forall p : cstmts,
  let f := meta_ss p clean in let s := spec_of p in
  f_cond f = s_cond s /\ f_new f = s_new s /\ f_memw f = s_memw s /\ f_memr f = s_memr s /\ f_branch f = s_branch s
  /\ f_wpred f = s_wpred s /\ (forall n, In n (f_preds f) <-> s_p s n = true) /\ NoDup (f_preds f).
Proof.
  intros p f s. subst f s. cbn [spec_of s_cond s_new s_memw s_memr s_branch s_wpred s_p].
  split; [ exact (acc_ss f_cond nope_e ps_if own_cond_e own_cond_s p clean) |].
  split; [ exact (acc_ss f_new pe_new nope_s own_new_e own_new_s p clean) |].
  split; [ exact (acc_ss f_memw nope_e ps_store own_memw_e own_memw_s p clean) |].
  split; [ exact (acc_ss f_memr pe_load nope_s own_memr_e own_memr_s p clean) |].
  split; [ exact (acc_ss f_branch nope_e ps_jump own_branch_e own_branch_s p clean) |].
  split; [ exact (acc_ss f_wpred pe_wpred nope_s own_wpred_e own_wpred_s p clean) |].
  split.
  - intros n. rewrite <- has_in, (acc_ss (has n) _ _ (own_has_e n) (own_has_s n)).
    rewrite (proj2 (proj2 (proj2 (any_scale (inrange n) (pe_num n) nope_s))) p). reflexivity.
  - apply (inv (fun f => NoDup (f_preds f)) nodup_token). constructor.
Qed.
Print Assumptions attrs_spec.

Lemma preds_imply_wpred p : f_preds (meta_ss p clean) <> [] -> f_wpred (meta_ss p clean) = true.
Proof.
  apply (proj2 (proj2 (proj2 (inv (fun f => f_preds f <> [] -> f_wpred f = true) wpred_token))) p clean).
  intros H. exfalso. apply H. reflexivity.
Qed.

Definition wp_name (n : Z) : string :=
  ("HEX_IL_INSN_ATTR_WRITE_P" ++ String (Ascii.ascii_of_nat (48 + Z.to_nat n)) EmptyString)%string.

Lemma in_if {A} (b : bool) (l : list A) x : In x (if b then l else []) <-> In x l /\ b = true.
Proof. destruct b; cbn; intuition congruence. Qed.
Lemma if_nil {A} (b : bool) (a : A) l : (if b then a :: l else []) = [] <-> b = false.
Proof. destruct b; intuition congruence. Qed.
Lemma app_nil_iff {A} (l l' : list A) : l ++ l' = [] <-> l = [] /\ l' = [].
Proof. split; [apply app_eq_nil | intros [-> ->]; reflexivity]. Qed.
Lemma in_none_or {A} (l : list A) d x :
  In x (match l with [] => [d] | _ => l end) <-> In x l \/ (l = [] /\ x = d).
Proof. destruct l; cbn; [intuition congruence | intuition discriminate]. Qed.

Lemma get_meta_in f x : In x (get_meta f) <->
     (x = "HEX_IL_INSN_ATTR_COND" /\ f_cond f = true) \/ (x = "HEX_IL_INSN_ATTR_NEW" /\ f_new f = true)
  \/ (x = "HEX_IL_INSN_ATTR_MEM_WRITE" /\ f_memw f = true) \/ (x = "HEX_IL_INSN_ATTR_MEM_READ" /\ f_memr f = true)
  \/ (x = "HEX_IL_INSN_ATTR_BRANCH" /\ f_branch f = true) \/ (x = "HEX_IL_INSN_ATTR_WPRED" /\ f_wpred f = true)
  \/ (f_wpred f = true /\ exists n, In n (f_preds f) /\ x = wp_name n)
  \/ (x = "HEX_IL_INSN_ATTR_NONE" /\ f_cond f = false /\ f_new f = false /\ f_memw f = false /\ f_memr f = false
      /\ f_branch f = false /\ f_wpred f = false).
Proof.
  unfold get_meta. cbv zeta. fold wp_name. cbn [app].
  (* the names play no part: as variables they keep the rewrites from walking through string literals *)
  generalize "HEX_IL_INSN_ATTR_COND" "HEX_IL_INSN_ATTR_NEW" "HEX_IL_INSN_ATTR_MEM_WRITE" "HEX_IL_INSN_ATTR_MEM_READ"
    "HEX_IL_INSN_ATTR_BRANCH" "HEX_IL_INSN_ATTR_WPRED" "HEX_IL_INSN_ATTR_NONE".
  intros c n w r b p d.
  rewrite in_none_or, !app_nil_iff, !if_nil, !in_app_iff, !in_if. cbn [In]. rewrite in_map_iff.
  assert ((exists k, wp_name k = x /\ In k (f_preds f)) <-> exists k, In k (f_preds f) /\ x = wp_name k) as ->
    by (split; intros (k & H1 & H2); exists k; split; congruence).
  intuition congruence.
Qed.

Lemma inrange_iff n : inrange n = true <-> (0 <= n < 4)%Z.
Proof. unfold inrange. lia. Qed.

Theorem attrs_list_spec : forall p x, In x (attrs p) <->
      (x = "HEX_IL_INSN_ATTR_COND" /\ contains_if p = true) \/ (x = "HEX_IL_INSN_ATTR_NEW" /\ reads_new p = true)
   \/ (x = "HEX_IL_INSN_ATTR_MEM_WRITE" /\ stores_mem p = true) \/ (x = "HEX_IL_INSN_ATTR_MEM_READ" /\ loads_mem p = true)
   \/ (x = "HEX_IL_INSN_ATTR_BRANCH" /\ jumps p = true) \/ (x = "HEX_IL_INSN_ATTR_WPRED" /\ assigns_pred p = true)
   \/ (exists n, (0 <= n < 4)%Z /\ assigns_numbered n p = true /\ x = ("HEX_IL_INSN_ATTR_WRITE_P" ++ String (Ascii.ascii_of_nat (48 + Z.to_nat n)) EmptyString)%string)
   \/ (x = "HEX_IL_INSN_ATTR_NONE" /\ contains_if p = false /\ reads_new p = false /\ stores_mem p = false /\ loads_mem p = false /\ jumps p = false /\ assigns_pred p = false).
Proof.
  intros p x. unfold attrs. rewrite get_meta_in.
  pose proof (preds_imply_wpred p) as Hpw.
  destruct (attrs_spec p) as (H1 & H2 & H3 & H4 & H5 & H6 & H7 & _).
  cbn [spec_of s_cond s_new s_memw s_memr s_branch s_wpred s_p] in *.
  rewrite H1, H2, H3, H4, H5, H6 in *.
  fold wp_name.
  (* a numbered predicate is in the list iff it is assigned; the list is reported only under WPRED, which
     any entry implies *)
  assert ((assigns_pred p = true /\ exists n, In n (f_preds (meta_ss p clean)) /\ x = wp_name n) <->
          (exists n, (0 <= n < 4)%Z /\ assigns_numbered n p = true /\ x = wp_name n)) as ->.
  { split.
    - intros (_ & n & Hin & E). exists n. apply H7, andb_true_iff in Hin. destruct Hin as [Hr Ha].
      apply inrange_iff in Hr. auto.
    - intros (n & Hr & Ha & E).
      assert (In n (f_preds (meta_ss p clean))) as Hin by (apply H7, andb_true_iff; split; [apply inrange_iff |]; assumption).
      split; [| exists n; auto].
      apply Hpw. intros E0. rewrite E0 in Hin. exact Hin. }
  reflexivity.
Qed.
Print Assumptions attrs_list_spec.

Example attrs_example :
  attrs (SCons (SIf (EOp (OExplicit "P0" true))
                    (SExpr (EAssign AAssign (EOp (OExplicit "P1" false)) (ELoad false 8 (ECons (EOp (OIdent "EA")) ENil))))
                    None) SNil)
  = ["HEX_IL_INSN_ATTR_COND"; "HEX_IL_INSN_ATTR_NEW"; "HEX_IL_INSN_ATTR_MEM_READ"; "HEX_IL_INSN_ATTR_WPRED"; "HEX_IL_INSN_ATTR_WRITE_P1"].
Proof. vm_compute. reflexivity. Qed.

