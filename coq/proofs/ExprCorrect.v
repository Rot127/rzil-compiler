(* Semantic correctness of the lowering of side-effect-free integer expressions, for the
   REPAIRED compiler model (cfg_fx = all_fixes): whenever C11 (sem/CSem.v) gives the expression a
   value, the emitted RzIL term (sem/RzIL.v) evaluates to that value, at the C type.

   Leaves of the fragment [pfrag rw IM V e]: integer literals, declared locals (V), and the instruction's
   OPERANDS: register operands of classes R P C M with any access letters of Lower.access_of_letters
   (sources RsV..RwV, read-write RxV..RzV, destinations RdV ReV read back, pairs RssV..RxxV RddV),
   .new operands (PuN, NsN, ...) and immediates (siV, uiV, ...; any set IM of letters, [imm_letter] = the
   eight letters of the grammar).
   The model emits a register read as a placeholder that Lower.fin_pure resolves at emission time from
   the FINAL access kind of the register, so the theorem is about the FINALISED term, for every later
   register table R ([regs_le]); an immediate is read through the RzIL local its prologue entry
   (Lower.st_imms) sets, so the IL state is one in which that prologue has run ([imms_done]).  The
   state relation [rel] ties the C operand environment (cenv: old register file, new-value bank,
   immediates) and the registers assigned so far to the IL machine state; READ_REG follows the contract
   of RzIL.read_reg.
   Further leaves and forms: the 18 aliased control registers HEX_REG_ALIAS_<n> ([alias_names]) and the PC alias
   (read as the packet address as long as it is not written), the explicitly named registers P0 .. P3, R29, R30, R31
   and their _NEW forms ([expl_names]; premise [xi_ok]: CSem's table of explicit registers agrees with
   OpTables.explicit_reg_info on these names), memory loads under a cast
   `(T) mem_load_<s|u><w>(a)` (incl. the size<N><s|u>_t casts), the pure macros sextract64 / extract64 / extract32 /
   deposit32 / deposit64 / bswap16 / bswap32 / bswap64 (premise [macs_std]: the macro table has the standard entries;
   proved for the shipped table in FragCheck), and sizeof(e) (premises [subs_ext] / [csub_ext]: neither sub-routine
   table knows the names of [ext_calls]; CSem gives sizeof no value, so that case is vacuous).
   The variable types of the model may carry the HYBRID flag (set on a local once ++ was applied to it: [ity],
   [ty_h]); a value of the fragment mentions no compiler temporary ([goodpv]: pv_tmps = []); [lst_ok] relates the
   model's variable table to the declared locals up to that flag and up to the temporaries h_tmp<n> ([is_htmp]). *)
From Coq Require Import ZArith NArith List Bool String Ascii Lia ZifyBool ZifyN.
From RZ.lib Require Import BV PyHeap.
From RZ.sem Require Import RzIL CSem.
From RZ.gen Require Import TypeRules.
From RZ.model Require Import Ast Types OpTables Lower.
Import ListNotations.
Local Open Scope string_scope.
Local Open Scope Z_scope.
Local Open Scope list_scope.

Definition okw (w : N) : Prop := w = 8%N \/ w = 16%N \/ w = 32%N \/ w = 64%N.

Lemma pow2_16 : pow2 16 = 65536. Proof. reflexivity. Qed.
Lemma pow2_32 : pow2 32 = 4294967296. Proof. reflexivity. Qed.
Lemma pow2_64 : pow2 64 = 18446744073709551616. Proof. reflexivity. Qed.

Ltac okw_cases H := destruct H as [H | [H | [H | H]]]; subst.

(* from here on, and in every file that imports this one, lia also reasons about / and mod by constants *)
Ltac Zify.zify_post_hook ::= Z.to_euclidean_division_equations.

Lemma okw_pos w : okw w -> (w =? 0)%N = false.
Proof. intros H; okw_cases H; reflexivity. Qed.

Lemma pow2_add w k : pow2 (w + k) = pow2 w * pow2 k.
Proof. unfold pow2. rewrite N2Z.inj_add. apply Z.pow_add_r; lia. Qed.
Lemma pow2_le w w' : (w <= w')%N -> pow2 w <= pow2 w'.
Proof. intros H. unfold pow2. apply Z.pow_le_mono_r; lia. Qed.
Lemma pow2_half w : (w =? 0)%N = false -> pow2 w = 2 * pow2 (w - 1).
Proof. intros H. replace w with (1 + (w - 1))%N at 1 by lia. apply pow2_add. Qed.

Lemma wrap_wrap_le w w' x : (w' <= w)%N -> wrap w' (wrap w x) = wrap w' x.
Proof.
  intros H. pose proof (pow2_pos w'). pose proof (pow2_pos (w - w')). unfold wrap.
  replace (pow2 w) with (pow2 w' * pow2 (w - w')) by (rewrite <- pow2_add; f_equal; lia).
  rewrite Z.rem_mul_r by lia. rewrite (Z.mul_comm (pow2 w')), Z_mod_plus_full. apply Z.mod_mod. lia.
Qed.
Lemma wrap_neg w x : - pow2 w <= x < 0 -> wrap w x = x + pow2 w.
Proof. intros H. unfold wrap. symmetry. apply (Z.mod_unique _ _ (-1)); lia. Qed.

Lemma wrap_sval w x : wrap w (sval w x) = wrap w x.
Proof.
  unfold sval. destruct (w =? 0)%N eqn:E.
  - apply N.eqb_eq in E. subst. unfold wrap. change (pow2 0) with 1. rewrite !Z.mod_1_r. reflexivity.
  - destruct (wrap w x <? pow2 (w - 1)).
    + apply wrap_idem.
    + unfold wrap. pose proof (pow2_pos w).
      replace (x mod pow2 w - pow2 w) with (x mod pow2 w + (-1) * pow2 w) by lia.
      rewrite Z_mod_plus_full. apply Z.mod_mod. lia.
Qed.

Lemma wrap_interp sg w z : wrap w (interp (sg, w) z) = wrap w z.
Proof. unfold interp; cbn [fst snd]. destruct sg; [apply wrap_sval | apply wrap_idem]. Qed.

Lemma wrap_add w a b : wrap w (a + b) = wrap w (wrap w a + wrap w b).
Proof. unfold wrap. apply Zplus_mod. Qed.
Lemma wrap_sub w a b : wrap w (a - b) = wrap w (wrap w a - wrap w b).
Proof. unfold wrap. apply Zminus_mod. Qed.
Lemma wrap_mul w a b : wrap w (a * b) = wrap w (wrap w a * wrap w b).
Proof. unfold wrap. apply Zmult_mod. Qed.
Lemma wrap_opp w a : wrap w (- a) = wrap w (- wrap w a).
Proof. replace (- a) with (0 - a) by lia. replace (- wrap w a) with (0 - wrap w a) by lia.
  rewrite wrap_sub. rewrite (wrap_sub w 0 (wrap w a)). rewrite wrap_idem. reflexivity. Qed.

Lemma wrap_not_wrap w z : wrap w (- wrap w z - 1) = wrap w (- z - 1).
Proof. rewrite wrap_sub, <- wrap_opp, <- wrap_sub. reflexivity. Qed.

Lemma arith_interp_add sg w x y : wrap w (interp (sg, w) x + interp (sg, w) y) = wrap w (x + y).
Proof. rewrite wrap_add, !wrap_interp, <- wrap_add. reflexivity. Qed.
Lemma arith_interp_sub sg w x y : wrap w (interp (sg, w) x - interp (sg, w) y) = wrap w (x - y).
Proof. rewrite wrap_sub, !wrap_interp, <- wrap_sub. reflexivity. Qed.
Lemma arith_interp_mul sg w x y : wrap w (interp (sg, w) x * interp (sg, w) y) = wrap w (x * y).
Proof. rewrite wrap_mul, !wrap_interp, <- wrap_mul. reflexivity. Qed.
Lemma arith_interp_neg sg w x : wrap w (- interp (sg, w) x) = wrap w (- x).
Proof. rewrite wrap_opp, wrap_interp, <- wrap_opp. reflexivity. Qed.
Lemma arith_interp_not sg w x : wrap w (- interp (sg, w) x - 1) = wrap w (- x - 1).
Proof. rewrite wrap_sub, wrap_opp, wrap_interp, <- wrap_opp, <- wrap_sub. reflexivity. Qed.

Lemma interp_unsigned w z : 0 <= z < pow2 w -> interp (false, w) z = z.
Proof. intros. unfold interp; cbn [fst snd]. apply wrap_small; auto. Qed.

Lemma sval_small w z : (w =? 0)%N = false -> 0 <= z < pow2 w ->
  sval w z = if z <? pow2 (w - 1) then z else z - pow2 w.
Proof. intros Hw Hz. unfold sval. rewrite Hw, (wrap_small w z Hz). reflexivity. Qed.

Lemma interp_bound sg w z : - pow2 w <= interp (sg, w) z < pow2 w.
Proof.
  pose proof (wrap_range w z). pose proof (pow2_pos w). unfold interp, sval; cbn [fst snd].
  destruct sg; [|lia]. destruct (w =? 0)%N; [lia|]. destruct (wrap w z <? pow2 (w - 1)); lia.
Qed.

Lemma interp_wrap_fit (sg : bool) w v : (w =? 0)%N = false ->
  (if sg then - pow2 (w - 1) <= v < pow2 (w - 1) else 0 <= v < pow2 w) -> interp (sg, w) (wrap w v) = v.
Proof.
  intros Hw Hv. unfold interp; cbn [fst snd]. rewrite ?wrap_idem. destruct sg; [|apply wrap_small; exact Hv].
  pose proof (pow2_half w Hw) as Hh. unfold sval. rewrite Hw, wrap_idem. destruct (Z.neg_nonneg_cases v) as [Hn | Hn].
  - rewrite (wrap_neg w v) by lia. destruct (v + pow2 w <? pow2 (w - 1)) eqn:E; lia.
  - rewrite (wrap_small w v) by lia. destruct (v <? pow2 (w - 1)) eqn:E; lia.
Qed.

Lemma interp_inj sg w x y : 0 <= x < pow2 w -> 0 <= y < pow2 w -> interp (sg, w) x = interp (sg, w) y -> x = y.
Proof.
  intros Hx Hy H. rewrite <- (wrap_small w x Hx), <- (wrap_small w y Hy), <- (wrap_interp sg w x), <- (wrap_interp sg w y), H.
  reflexivity.
Qed.

(* a narrowing cast keeps the low bits, which the
   number read at the wider type shares with its representative; a widening one adds 2^w' - 2^w exactly when that number
   is negative *)
Lemma cast_narrow w w' fb sg z : (w' <=? w)%N = true ->
  bvcast w w' fb z = wrap w' (interp (sg, w) z).
Proof.
  intros Hle. unfold bvcast. rewrite Hle.
  rewrite <- (wrap_wrap_le w w' (interp (sg, w) z)), wrap_interp, wrap_wrap_le by lia. reflexivity.
Qed.

Lemma cast_widen w w' sg z : (w =? 0)%N = false -> (w <? w')%N = true -> 0 <= z < pow2 w ->
  bvcast w w' (sg && msb w z) z = wrap w' (interp (sg, w) z).
Proof.
  intros Hw Hlt Hz. unfold bvcast. assert ((w' <=? w)%N = false) as -> by lia.
  pose proof (pow2_le w w' ltac:(lia)) as Hle. rewrite (wrap_small w z Hz).
  destruct sg; cbn [andb]; [|rewrite interp_unsigned by exact Hz; symmetry; apply wrap_small; lia].
  unfold interp, msb; cbn [fst snd]. rewrite Hw, (wrap_small w z Hz), (sval_small w z Hw Hz), Z.leb_antisym.
  destruct (z <? pow2 (w - 1)); cbn [negb]; symmetry; [apply wrap_small | rewrite wrap_neg]; lia.
Qed.

Definition wfc (c : cval) : Prop := okw (snd (fst c)) /\ 0 <= snd c < pow2 (snd (fst c)).

Lemma promote_okw sg w : okw w -> okw (snd (promote (sg, w))).
Proof. intros H. unfold promote; cbn [fst snd]. okw_cases H; cbn; unfold okw; auto. Qed.

(* promotion does not change the number: below 32 bits it fits int, from 32 bits on the type stays *)
Lemma vint_conv_promote c : wfc c -> vint (conv (promote (fst c)) c) = vint c.
Proof.
  destruct c as [[sg w] z]. intros [Hw Hz]; cbn [fst snd] in *. apply okw_pos in Hw.
  unfold conv, mkval, vint, promote; cbn [fst snd]. destruct (w <? 32)%N eqn:E; cbn [fst snd int_t].
  - apply (interp_wrap_fit true 32); [reflexivity|]. change (32 - 1)%N with 31%N.
    pose proof (interp_bound sg w z). pose proof (pow2_le w 31 ltac:(lia)). lia.
  - rewrite wrap_interp, (wrap_small w z Hz). reflexivity.
Qed.

Lemma conv_conv_promote t c : wfc c -> conv t (conv (promote (fst c)) c) = conv t c.
Proof. intros H. unfold conv at 1. rewrite vint_conv_promote by auto. reflexivity. Qed.

Lemma conv_wfc t c : okw (snd t) -> wfc (conv t c).
Proof. intros H. unfold conv, mkval, wfc; cbn [fst snd]. split; auto. apply wrap_range. Qed.

Lemma conv_same c : wfc c -> conv (fst c) c = c.
Proof.
  destruct c as [[sg w] z]. intros [Hw Hz]; cbn [fst snd] in *. unfold conv, mkval, vint. cbn [fst snd].
  rewrite wrap_interp. rewrite wrap_small by auto. reflexivity.
Qed.

Lemma fst_conv t c : fst (conv t c) = t. Proof. reflexivity. Qed.

Lemma log2_bound x W : 0 < W -> 0 <= x < 2 ^ W -> Z.log2 x < W.
Proof.
  intros HW [H0 H1]. destruct (Z.eq_dec x 0) as [->|Hn]; [cbn; lia|].
  apply Z.log2_lt_pow2; lia.
Qed.

Lemma bit_bound (f : Z -> Z -> Z) x y W :
  (forall a b, 0 <= a -> 0 <= b -> 0 <= f a b) ->
  (forall a b, 0 <= a -> 0 <= b -> Z.log2 (f a b) <= Z.max (Z.log2 a) (Z.log2 b)) ->
  0 < W -> 0 <= x < 2 ^ W -> 0 <= y < 2 ^ W -> 0 <= f x y < 2 ^ W.
Proof.
  intros Hnn Hlog HW Hx Hy. split; [apply Hnn; lia|].
  destruct (Z.eq_dec (f x y) 0) as [E|E]; [rewrite E; apply Z.pow_pos_nonneg; lia|].
  assert (0 < f x y) by (specialize (Hnn x y); lia).
  apply Z.log2_lt_pow2; auto.
  pose proof (Hlog x y ltac:(lia) ltac:(lia)).
  pose proof (log2_bound x W HW Hx). pose proof (log2_bound y W HW Hy). lia.
Qed.

Lemma okw_Zpos w : okw w -> 0 < Z.of_N w.
Proof. intros H; okw_cases H; lia. Qed.

Lemma land_range w x y : okw w -> 0 <= x < pow2 w -> 0 <= y < pow2 w -> 0 <= Z.land x y < pow2 w.
Proof.
  intros Hw. unfold pow2. apply bit_bound; [| |apply okw_Zpos; auto].
  - intros. apply Z.land_nonneg. auto.
  - intros a b Ha Hb. pose proof (Z.log2_land a b Ha Hb). lia.
Qed.
Lemma lor_range w x y : okw w -> 0 <= x < pow2 w -> 0 <= y < pow2 w -> 0 <= Z.lor x y < pow2 w.
Proof.
  intros Hw. unfold pow2. apply bit_bound; [| |apply okw_Zpos; auto].
  - intros. apply Z.lor_nonneg. auto.
  - intros a b Ha Hb. rewrite (Z.log2_lor a b Ha Hb). lia.
Qed.
Lemma lxor_range w x y : okw w -> 0 <= x < pow2 w -> 0 <= y < pow2 w -> 0 <= Z.lxor x y < pow2 w.
Proof.
  intros Hw. unfold pow2. apply bit_bound; [| |apply okw_Zpos; auto].
  - intros. apply Z.lxor_nonneg. lia.
  - intros a b Ha Hb. apply (Z.log2_lxor a b Ha Hb).
Qed.

Lemma shl_ok sg w x n : 0 <= n < Z.of_N w ->
  shl0 w x n = wrap w (interp (sg, w) x * 2 ^ n).
Proof.
  intros Hn. unfold shl0. assert (n <? Z.of_N w = true) as -> by lia.
  rewrite (wrap_mul w (interp (sg, w) x)). rewrite wrap_interp.
  rewrite (wrap_mul w (wrap w x)). rewrite wrap_idem. reflexivity.
Qed.

Lemma shr_ok w x n : 0 <= n < Z.of_N w -> 0 <= x < pow2 w ->
  shr0 w x n = wrap w (interp (false, w) x / 2 ^ n).
Proof.
  intros Hn Hx. unfold shr0. assert (n <? Z.of_N w = true) as -> by lia.
  rewrite interp_unsigned by auto. rewrite (wrap_small w x) by auto.
  symmetry. apply wrap_small.
  assert (0 < 2 ^ n) by (apply Z.pow_pos_nonneg; lia).
  split; [apply Z.div_pos; lia|]. apply Z.div_lt_upper_bound; nia.
Qed.

Lemma shra_ok w x n : 0 <= n < Z.of_N w ->
  shra w x n = wrap w (interp (true, w) x / 2 ^ n).
Proof. intros Hn. unfold shra. assert (n <? Z.of_N w = true) as -> by lia. reflexivity. Qed.

Lemma interp_nonneg sg w y : okw w -> 0 <= y < pow2 w -> 0 <= interp (sg, w) y -> interp (sg, w) y = y.
Proof.
  intros Hw Hy. destruct sg; [|intros _; apply interp_unsigned; exact Hy].
  unfold interp; cbn [fst snd]. rewrite (sval_small w y (okw_pos w Hw) Hy). destruct (y <? pow2 (w - 1)); lia.
Qed.

Lemma promoted_vtype_plain sg w : okw w ->
  promoted_vtype (ty_int sg w) = Some (ty_int (fst (promote (sg, w))) (snd (promote (sg, w)))).
Proof. intros H. okw_cases H; destruct sg; vm_compute; reflexivity. Qed.

Lemma promoted_vtype_bool : promoted_vtype ty_bool = Some (ty_int true 32).
Proof. vm_compute. reflexivity. Qed.

Lemma uac_okw s1 w1 s2 w2 : okw w1 -> okw w2 -> okw (snd (uac (s1, w1) (s2, w2))).
Proof. intros H1 H2. okw_cases H1; okw_cases H2; destruct s1, s2; vm_compute; auto 6. Qed.

Lemma literal_vtype_eq v hex suf :
  c11_literal_vtype v hex suf = option_map (fun t : cty => ty_int (fst t) (snd t)) (literal_type v hex suf).
Proof.
  unfold c11_literal_vtype, literal_type, fits.
  repeat match goal with |- context [String.eqb suf ?s] => destruct (String.eqb suf s) end;
  try destruct hex; cbn [find fst snd option_map];
  change (2 ^ (Z.of_N 32 - 1)) with 2147483648; change (2 ^ (Z.of_N 64 - 1)) with 9223372036854775808;
  change (2 ^ Z.of_N 32) with 4294967296; change (2 ^ Z.of_N 64) with 18446744073709551616;
  change (pow2 (32 - 1)) with 2147483648; change (pow2 (64 - 1)) with 9223372036854775808;
  change (pow2 32) with 4294967296; change (pow2 64) with 18446744073709551616;
  repeat match goal with |- context [Z.ltb v ?c] => destruct (Z.ltb v c) end; reflexivity.
Qed.

Lemma literal_type_cases v hex suf t : literal_type v hex suf = Some t ->
  (snd t = 32%N \/ snd t = 64%N) /\ fits t v = true.
Proof.
  unfold literal_type. intros H. apply find_some in H. destruct H as [Hin Hf]. split; auto.
  repeat match type of Hin with context [String.eqb suf ?s] => destruct (String.eqb suf s) end;
  try destruct hex; cbn [In] in Hin; intuition (subst; cbn; auto).
Qed.

Lemma append_empty_r s : s +++ "" = s.
Proof. induction s as [|c s IH]; cbn [append]; [reflexivity | rewrite IH; reflexivity]. Qed.

Lemma substring_full s : substring 0 (String.length s) s = s.
Proof. induction s as [|c s IH]; cbn [String.length substring]; [reflexivity | rewrite IH; reflexivity]. Qed.

Lemma substring_0_0 s : substring 0 0 s = "".
Proof. destruct s; reflexivity. Qed.

Lemma reg_name_of_reg n : reg_name_of ("$reg:" +++ n) = Some n.
Proof.
  unfold reg_name_of, reg_prefix. cbn [append substring String.length].
  rewrite substring_0_0. cbn [String.eqb Ascii.eqb Bool.eqb Nat.sub].
  rewrite Nat.sub_0_r, substring_full. reflexivity.
Qed.

Lemma lookup_app {A} x (l1 l2 : list (string * A)) :
  lookup x (l1 ++ l2) = match lookup x l1 with Some v => Some v | None => lookup x l2 end.
Proof.
  induction l1 as [|[y v] t IH]; cbn [app lookup]; [reflexivity|].
  destruct (String.eqb x y); [reflexivity | exact IH].
Qed.

Lemma lookup_none_existsb {A} x (l : list (string * A)) :
  lookup x l = None -> existsb (fun p => String.eqb (fst p) x) l = false.
Proof.
  induction l as [|[y v] t IH]; cbn [lookup existsb fst]; [reflexivity|].
  rewrite (String.eqb_sym y x). destruct (String.eqb x y); [discriminate|]. exact IH.
Qed.

Lemma lookup_some_existsb {A} x (l : list (string * A)) v :
  lookup x l = Some v -> existsb (fun p => String.eqb (fst p) x) l = true.
Proof.
  induction l as [|[y w] t IH]; cbn [lookup existsb fst]; [discriminate|].
  rewrite (String.eqb_sym y x). destruct (String.eqb x y); [reflexivity|]. exact IH.
Qed.

(* the letters the grammar accepts in <letter>iV (gen/GrammarTables.term_IMMEDIATE = /[rRsSuUmn]/) *)
Definition imm_letter (l : string) : bool := existsb (String.eqb l) ["r"; "R"; "s"; "S"; "u"; "U"; "m"; "n"].
Definition imm_ty (l : string) : vtype := ty_int (imm_signed l) 32.
Definition imm_entry (l : string) : effect := ESetL l (PImm l (imm_signed l) 32).
(* CSem keeps an assigned immediate in the C local "imm:<letter>" *)
Definition imm_cname (x : string) : bool := String.eqb (substring 0 4 x) "imm:".
(* the names of the temporaries the compiler introduces for ++ / -- *)
Definition is_htmp (x : string) : bool := String.eqb (substring 0 5 x) "h_tmp".
Lemma imm_cname_imm l : imm_cname ("imm:" +++ l) = true.
Proof. unfold imm_cname. cbn [append substring]. rewrite substring_0_0. reflexivity. Qed.

(* register operands of the fragment: classes R P C M with the access letters of Lower.access_of_letters,
   and for .new operands also class N (NsN) *)
Definition dest_cls (cls : string) : Prop := cls = "R" \/ cls = "P" \/ cls = "C" \/ cls = "M".
Definition reg_cls (new : bool) (cls : string) : Prop := dest_cls cls \/ (new = true /\ cls = "N").
Definition cls_w (cls : string) : N := if String.eqb cls "P" then 8%N else 32%N.
Definition dest_w (cls : string) (acc : access) : N := if is_pair acc then (cls_w cls * 2)%N else cls_w cls.
Definition sfx (new : bool) : string := if new then "_new" else "".
(* the name under which Lower.lower_reg registers the operand, and its operand handle *)
Definition rname (cls letters : string) (new : bool) : string := cls +++ letters +++ sfx new.
Definition rop (cls letters : string) (new : bool) : regop :=
  if String.eqb cls "N" then RNreg (substring 0 1 letters) else RIsa cls (substring 0 1 letters) new.

Lemma rname_false cls letters : rname cls letters false = cls +++ letters.
Proof. unfold rname, sfx. rewrite append_empty_r. reflexivity. Qed.
Lemma rop_dest cls letters new : dest_cls cls -> rop cls letters new = RIsa cls (substring 0 1 letters) new.
Proof. intros [-> | [-> | [-> | ->]]]; reflexivity. Qed.

Lemma dest_cls_widths cls : dest_cls cls ->
  reg_width cls = Some (cls_w cls) /\ class_width cls = Some (cls_w cls) /\ String.eqb cls "N" = false.
Proof. intros [-> | [-> | [-> | ->]]]; repeat split; reflexivity. Qed.
Lemma reg_cls_widths new cls : reg_cls new cls ->
  reg_width cls = Some (cls_w cls) /\ class_width cls = Some (cls_w cls).
Proof. intros [[-> | [-> | [-> | ->]]] | [_ ->]]; split; reflexivity. Qed.

Lemma reg_w_okw new cls acc : reg_cls new cls -> okw (dest_w cls acc).
Proof. intros [[-> | [-> | [-> | ->]]] | [_ ->]]; unfold dest_w; destruct (is_pair acc); vm_compute; auto 6. Qed.

Definition letter_table : list string :=
  ["s"; "t"; "u"; "v"; "w"; "d"; "e"; "x"; "y"; "z"; "ss"; "tt"; "uu"; "vv"; "dd"; "xx"; "yy"].

(* the operand letters, case by case: the pair letters are the two-letter ones; destination-only operands (d, e, dd) are
   the only ones whose reads are finalised to the NEW bank, and the ones C initialises to 0 *)
Lemma access_letters letters acc : access_of_letters letters = Some acc ->
  In letters letter_table /\ is_pair acc = is_pair_letters letters /\
  write_only acc = (String.eqb (substring 0 1 letters) "d" || String.eqb (substring 0 1 letters) "e") /\ acc <> AUnknown.
Proof.
  unfold access_of_letters; cbn [existsb].
  repeat match goal with
         | |- context [String.eqb letters ?s] =>
             destruct (String.eqb_spec letters s) as [->|?];
             [intros H; injection H as <-; split; [cbn [letter_table In]; repeat (first [left; reflexivity | right]) |
                                                   split; [reflexivity | split; [reflexivity | discriminate]]] |]
         end.
  cbn; discriminate.
Qed.
Definition any_cls (cls : string) : Prop := cls = "R" \/ cls = "P" \/ cls = "C" \/ cls = "M" \/ cls = "N".
Lemma reg_cls_any new cls : reg_cls new cls -> any_cls cls.
Proof. unfold any_cls. intros [[-> | [-> | [-> | ->]]] | [_ ->]]; auto 6. Qed.

Definition lsfx_all : list (string * bool) := flat_map (fun l => [(l, true); (l, false)]) letter_table.

(* the aliases of the fragment: the named registers of the ISA except the program counter (reads of HEX_REG_ALIAS_PC are
   emitted as the packet address and a write names an undeclared handle: outside the fragment) *)
Definition alias_names : list string :=
  ["USR"; "SP"; "LR"; "GP"; "FP"; "LC0"; "LC1"; "SA0"; "SA1"; "M0"; "M1"; "CS0"; "CS1"; "UPCYCLE"; "PKTCOUNT"; "UTIMER"; "UGP"; "FRAMEKEY"].
(* the name under which Lower.lower_operand registers the alias, its operand handle, its width *)
Definition alias_tname (name : string) (new : bool) : string := lower_ascii name +++ sfx new.
Definition alias_op (name : string) (new : bool) : regop := RAlias ("HEX_REG_ALIAS_" +++ name) new.
Definition alias_w (name : string) : N := alias_width name.

Definition alias_all : list (string * bool) := flat_map (fun a => [(a, true); (a, false)]) alias_names.
Definition isa_all : list (string * (string * bool)) :=
  flat_map (fun c => map (fun lb => (c, lb)) lsfx_all) ["R"; "P"; "C"; "M"; "N"].
Definition pc_op : regop := RAlias "HEX_REG_ALIAS_PC" false.

(* explicitly named registers (P0 .. P3 of fREAD_P0 / fWRITE_P0 ..., R29 R30 R31): registered under their own name *)
Definition expl_names : list string := ["P0"; "P1"; "P2"; "P3"; "R29"; "R30"; "R31"].
Definition expl_tname (name : string) (new : bool) : string := name +++ sfx new.
Definition expl_op (name : string) (new : bool) : regop :=
  match explicit_reg_info name new with Some (r, _) => r | None => RParam "" end.
Definition expl_w (name : string) : N := match explicit_reg_info name false with Some (_, w) => w | None => 0%N end.
Definition expl_all : list (string * bool) := flat_map (fun a => [(a, true); (a, false)]) expl_names.
Definition is_rexpl (r : regop) (new : bool) : bool := match r with RExpl _ _ n => Bool.eqb n new | _ => false end.

Lemma in_isa_all cls letters new : any_cls cls -> In letters letter_table -> In (cls, (letters, new)) isa_all.
Proof.
  intros Hc Hl. unfold isa_all. apply in_flat_map. exists cls. split.
  - unfold any_cls in Hc. cbn. intuition.
  - apply in_map. unfold lsfx_all. apply in_flat_map. exists letters. split; [exact Hl|]. destruct new; cbn; auto.
Qed.
Lemma in_isa_all' cls letters new : any_cls cls -> In letters letter_table -> In (cls, (letters, new)) isa_all.
Proof. exact (in_isa_all cls letters new). Qed.
Lemma alias_in_all name new : In name alias_names -> In (name, new) alias_all.
Proof. intros H. unfold alias_all. apply in_flat_map. exists name. split; [exact H|]. destruct new; cbn; auto. Qed.
Lemma expl_in_all name new : In name expl_names -> In (name, new) expl_all.
Proof. intros H. unfold expl_all. apply in_flat_map. exists name. split; [exact H|]. destruct new; cbn; auto. Qed.

(* every register-like operand of the fragment is entered in the model's register table under a name of its own: an ISA
   operand, an alias, the program counter alias (registered as "pc"), an explicit register *)
Inductive rkey : Type :=
| KeyIsa (cls letters : string) (new : bool)
| KeyAlias (name : string) (new : bool)
| KeyPc
| KeyExpl (name : string) (new : bool).
Definition tname (k : rkey) : string :=
  match k with
  | KeyIsa cls letters new => rname cls letters new
  | KeyAlias name new => alias_tname name new
  | KeyPc => "pc"
  | KeyExpl name new => expl_tname name new
  end.
Definition rkeys : list rkey :=
  map (fun i => KeyIsa (fst i) (fst (snd i)) (snd (snd i))) isa_all ++
  map (fun a => KeyAlias (fst a) (snd a)) alias_all ++ KeyPc :: map (fun a => KeyExpl (fst a) (snd a)) expl_all.

Lemma isa_key cls letters new : any_cls cls -> In letters letter_table -> In (KeyIsa cls letters new) rkeys.
Proof.
  intros Hc Hl. apply in_or_app. left.
  exact (in_map (fun i => KeyIsa (fst i) (fst (snd i)) (snd (snd i))) _ _ (in_isa_all cls letters new Hc Hl)).
Qed.
Lemma alias_key name new : In name alias_names -> In (KeyAlias name new) rkeys.
Proof.
  intros H. apply in_or_app. right. apply in_or_app. left.
  exact (in_map (fun a => KeyAlias (fst a) (snd a)) _ _ (alias_in_all name new H)).
Qed.
Lemma pc_key : In KeyPc rkeys.
Proof. apply in_or_app. right. apply in_or_app. right. left. reflexivity. Qed.
Lemma expl_key name new : In name expl_names -> In (KeyExpl name new) rkeys.
Proof.
  intros H. apply in_or_app. right. apply in_or_app. right. right.
  exact (in_map (fun a => KeyExpl (fst a) (snd a)) _ _ (expl_in_all name new H)).
Qed.

Fixpoint distinct (l : list string) : bool :=
  match l with [] => true | x :: t => negb (existsb (String.eqb x) t) && distinct t end.
Lemma distinct_inj {A} (f : A -> string) l : distinct (map f l) = true ->
  forall x y, In x l -> In y l -> f x = f y -> x = y.
Proof.
  induction l as [|a l IH]; cbn [map distinct In]; [contradiction|].
  intros H x y Hx Hy He. apply andb_true_iff in H. destruct H as [Ha Hd]. apply negb_true_iff in Ha.
  assert (Hout : forall z, In z l -> f a <> f z).
  { intros z Hz E. rewrite (proj2 (existsb_exists _ _)) in Ha; [discriminate|].
    exists (f z). split; [apply in_map; exact Hz | apply String.eqb_eq; exact E]. }
  destruct Hx as [<- | Hx], Hy as [<- | Hy]; [reflexivity | | | exact (IH Hd x y Hx Hy He)].
  - exfalso. exact (Hout y Hy He).
  - exfalso. exact (Hout x Hx (eq_sym He)).
Qed.

(* the 221 names are pairwise distinct: the one fact about the table that is established by evaluation *)
Lemma tname_inj k k' : In k rkeys -> In k' rkeys -> tname k = tname k' -> k = k'.
Proof. apply (distinct_inj tname rkeys). vm_compute. reflexivity. Qed.

(* the first conjunct is the width test Lower.lower_operand makes on an alias, the second its test for the program counter *)
Lemma alias_facts name : In name alias_names ->
  (if existsb (String.eqb (lower_ascii name)) ["upcycle"; "pktcount"; "utimer"] then 64%N else 32%N) = alias_w name /\
  String.eqb (lower_ascii name) "pc" = false /\ okw (alias_w name).
Proof.
  intros H. cbn [alias_names In] in H.
  repeat (destruct H as [<- | H]; [vm_compute; auto 6|]). contradiction.
Qed.

Lemma expl_facts name new : In name expl_names ->
  explicit_reg_info name new = Some (expl_op name new, expl_w name) /\ is_rexpl (expl_op name new) new = true /\ okw (expl_w name).
Proof.
  intros H. cbn [expl_names In] in H.
  repeat (destruct H as [<- | H]; [destruct new; vm_compute; auto 6|]). contradiction.
Qed.
(* the C semantics is given the table of the explicit registers *)
Definition xi_ok (xi : string -> bool -> option (regop * N)) : Prop :=
  forall name new, In name expl_names -> xi name new = explicit_reg_info name new.
Lemma xi_ok_std : xi_ok explicit_reg_info.
Proof. intros name new _. reflexivity. Qed.

(* the entries of the model's register table, as the fragment creates them, one form per kind of operand *)
Definition isa_entry (n : string) (ri : reginfo) : Prop :=
  exists cls letters acc new, reg_cls new cls /\ access_of_letters letters = Some acc /\ n = rname cls letters new /\
    r_op ri = rop cls letters new /\ r_ty ri = ty_int true (dest_w cls acc) /\ r_pc ri = false /\ r_new ri = new /\
    write_only (r_acc ri) = write_only acc /\ r_acc ri <> AUnknown.
Definition alias_entry (n : string) (ri : reginfo) : Prop :=
  exists name new, In name alias_names /\ n = alias_tname name new /\ r_op ri = alias_op name new /\
    r_ty ri = ty_int false (alias_w name) /\ r_pc ri = false /\ r_new ri = new.
(* the program counter alias, read only: its reads are emitted as the packet address as long as it is not written *)
Definition pc_entry (n : string) (ri : reginfo) : Prop :=
  n = "pc" /\ r_op ri = pc_op /\ r_ty ri = ty_int false 32 /\ r_pc ri = true /\ r_new ri = false /\ r_acc ri = AUnknown.
Definition expl_entry (n : string) (ri : reginfo) : Prop :=
  exists name new, In name expl_names /\ n = expl_tname name new /\ r_op ri = expl_op name new /\
    r_ty ri = ty_int true (expl_w name) /\ r_pc ri = false /\ r_new ri = new.
Definition entry_ok (n : string) (ri : reginfo) : Prop := isa_entry n ri \/ alias_entry n ri \/ pc_entry n ri \/ expl_entry n ri.
(* which kind an entry is, is decided by its name *)
Definition key_entry (k : rkey) : string -> reginfo -> Prop :=
  match k with KeyIsa _ _ _ => isa_entry | KeyAlias _ _ => alias_entry | KeyPc => pc_entry | KeyExpl _ _ => expl_entry end.
Lemma entry_key n ri : entry_ok n ri -> exists k, In k rkeys /\ n = tname k /\ key_entry k n ri.
Proof.
  intros [H | [H | [H | H]]].
  - pose proof H as [cls [l [acc [new [Hc [Ha [Hn _]]]]]]]. exists (KeyIsa cls l new).
    split; [exact (isa_key _ _ _ (reg_cls_any _ _ Hc) (proj1 (access_letters _ _ Ha))) | split; [exact Hn | exact H]].
  - pose proof H as [name [new [Hin [Hn _]]]]. exists (KeyAlias name new).
    split; [exact (alias_key _ _ Hin) | split; [exact Hn | exact H]].
  - exists KeyPc. split; [exact pc_key | split; [exact (proj1 H) | exact H]].
  - pose proof H as [name [new [Hin [Hn _]]]]. exists (KeyExpl name new).
    split; [exact (expl_key _ _ Hin) | split; [exact Hn | exact H]].
Qed.
Lemma entry_of_key n ri k : entry_ok n ri -> In k rkeys -> n = tname k -> key_entry k n ri.
Proof.
  intros H Hk Hn. destruct (entry_key n ri H) as [k' [Hk' [Hn' He]]].
  rewrite (tname_inj k k' Hk Hk') by congruence. exact He.
Qed.
(* and so are its handle, type and flags; for an ISA operand also whether it is only written *)
Lemma entry_same n ri ri' : entry_ok n ri -> entry_ok n ri' ->
  r_op ri' = r_op ri /\ r_ty ri' = r_ty ri /\ r_pc ri' = r_pc ri /\ r_new ri' = r_new ri /\
  (isa_entry n ri -> write_only (r_acc ri') = write_only (r_acc ri) /\ r_acc ri' <> AUnknown).
Proof.
  intros H H'. destruct (entry_key n ri H) as [k [Hk [Hn He]]]. pose proof (entry_of_key n ri' k H' Hk Hn) as He'.
  destruct k as [cls l new | name new | | name new]; cbn [key_entry] in He, He'.
  - destruct He as [c1 [l1 [a1 [n1 [C1 [A1 [N1 [O1 [T1 [P1 [W1 [X1 U1]]]]]]]]]]]].
    destruct He' as [c2 [l2 [a2 [n2 [C2 [A2 [N2 [O2 [T2 [P2 [W2 [X2 U2]]]]]]]]]]]].
    assert (E : KeyIsa c1 l1 n1 = KeyIsa c2 l2 n2).
    { apply tname_inj; [exact (isa_key _ _ _ (reg_cls_any _ _ C1) (proj1 (access_letters _ _ A1))) |
                        exact (isa_key _ _ _ (reg_cls_any _ _ C2) (proj1 (access_letters _ _ A2))) | cbn [tname]; congruence]. }
    injection E as <- <- <-. rewrite A1 in A2. injection A2 as <-.
    rewrite O1, T1, P1, W1, O2, T2, P2, W2, X1, X2. repeat (split; [reflexivity|]). exact U2.
  - destruct He as [m1 [n1 [I1 [N1 [O1 [T1 [P1 W1]]]]]]]. destruct He' as [m2 [n2 [I2 [N2 [O2 [T2 [P2 W2]]]]]]].
    assert (E : KeyAlias m1 n1 = KeyAlias m2 n2) by (apply tname_inj; [exact (alias_key _ _ I1) | exact (alias_key _ _ I2) | cbn [tname]; congruence]).
    injection E as <- <-. rewrite O1, T1, P1, W1, O2, T2, P2, W2. repeat (split; [reflexivity|]).
    intros [c [l [a [nw [C [A [N _]]]]]]]. exfalso. rewrite N1 in N.
    discriminate (tname_inj (KeyAlias m1 n1) (KeyIsa c l nw) (alias_key _ _ I1) (isa_key _ _ _ (reg_cls_any _ _ C) (proj1 (access_letters _ _ A))) N).
  - destruct He as [N1 [O1 [T1 [P1 [W1 _]]]]]. destruct He' as [_ [O2 [T2 [P2 [W2 _]]]]].
    rewrite O1, T1, P1, W1, O2, T2, P2, W2. repeat (split; [reflexivity|]).
    intros [c [l [a [nw [C [A [N _]]]]]]]. exfalso. rewrite N1 in N.
    discriminate (tname_inj KeyPc (KeyIsa c l nw) pc_key (isa_key _ _ _ (reg_cls_any _ _ C) (proj1 (access_letters _ _ A))) N).
  - destruct He as [m1 [n1 [I1 [N1 [O1 [T1 [P1 W1]]]]]]]. destruct He' as [m2 [n2 [I2 [N2 [O2 [T2 [P2 W2]]]]]]].
    assert (E : KeyExpl m1 n1 = KeyExpl m2 n2) by (apply tname_inj; [exact (expl_key _ _ I1) | exact (expl_key _ _ I2) | cbn [tname]; congruence]).
    injection E as <- <-. rewrite O1, T1, P1, W1, O2, T2, P2, W2. repeat (split; [reflexivity|]).
    intros [c [l [a [nw [C [A [N _]]]]]]]. exfalso. rewrite N1 in N.
    discriminate (tname_inj (KeyExpl m1 n1) (KeyIsa c l nw) (expl_key _ _ I1) (isa_key _ _ _ (reg_cls_any _ _ C) (proj1 (access_letters _ _ A))) N).
Qed.

(* recording a write changes the access kind only: an entry other than the program counter's stays an entry, provided
   a known access kind keeps whether it is write-only *)
Lemma entry_ok_acc n ri acc' : entry_ok n ri -> n <> "pc" ->
  (r_acc ri <> AUnknown -> write_only acc' = write_only (r_acc ri) /\ acc' <> AUnknown) ->
  r_pc ri = false /\ entry_ok n (mkreg (r_op ri) (r_ty ri) acc' (r_x ri) (r_pc ri) (r_new ri)).
Proof.
  intros [[c [l [a [nw [H1 [H2 [H3 [H4 [H5 [H6 [H7 [H8 H9]]]]]]]]]]]] | [[nm [nw [H1 [H2 [H3 [H4 [H5 H6]]]]]]] | [[Hn _] | [nm [nw [H1 [H2 [H3 [H4 [H5 H6]]]]]]]]]] Hpc Ha.
  - split; [exact H6|]. left. exists c, l, a, nw. cbn [r_op r_ty r_pc r_new r_acc]. destruct (Ha H9) as [Hw Hu]. rewrite Hw. auto 12.
  - split; [exact H5|]. right. left. exists nm, nw. cbn [r_op r_ty r_pc r_new r_acc]. auto 10.
  - contradiction.
  - split; [exact H5|]. right. right. right. exists nm, nw. cbn [r_op r_ty r_pc r_new r_acc]. auto 10.
Qed.

Definition regs_ok (regs : list (string * reginfo)) : Prop :=
  forall n ri, lookup_reg_info n regs = Some ri -> entry_ok n ri.
(* a later table: what finalisation (Lower.reg_read / reg_handle) looks at is unchanged, except that an entry whose
   access kind is still unknown (an alias that has not been written yet) may become a written one *)
Definition acc_le (pc : bool) (a a' : access) : Prop :=
  (pc = false /\ a = AUnknown) \/ (write_only a' = write_only a /\ (a <> AUnknown -> a' <> AUnknown)).
Definition regs_le (regs regs' : list (string * reginfo)) : Prop :=
  forall n ri, lookup_reg_info n regs = Some ri ->
    exists ri', lookup_reg_info n regs' = Some ri' /\ r_op ri' = r_op ri /\ r_pc ri' = r_pc ri /\ r_new ri' = r_new ri /\
                acc_le (r_pc ri) (r_acc ri) (r_acc ri').

Lemma acc_le_refl pc a : acc_le pc a a.
Proof. unfold acc_le. right. auto. Qed.
Lemma acc_le_trans pc a b c : acc_le pc a b -> acc_le pc b c -> acc_le pc a c.
Proof.
  unfold acc_le. intros [H1 | [W1 H1]] H2; [left; exact H1|]. destruct H2 as [[Hp H2] | [W2 H2]].
  - left. split; [exact Hp|]. destruct a; try reflexivity; exfalso; apply H1; try discriminate; exact H2.
  - right. split; [congruence | auto].
Qed.
Lemma regs_le_refl r : regs_le r r.
Proof. intros n ri H. exists ri. auto using acc_le_refl. Qed.
Lemma regs_le_trans a b c : regs_le a b -> regs_le b c -> regs_le a c.
Proof.
  intros H1 H2 n ri H. destruct (H1 n ri H) as [ri1 [L1 [O1 [P1 [N1 W1]]]]]. destruct (H2 n ri1 L1) as [ri2 [L2 [O2 [P2 [N2 W2]]]]].
  exists ri2. split; [exact L2|]. split; [congruence|]. split; [congruence|]. split; [congruence|]. rewrite P1 in W2. eapply acc_le_trans; eassumption.
Qed.
Lemma regs_ok_nil : regs_ok [].
Proof. intros n ri H. discriminate H. Qed.

Lemma lookup_reg_info_app n l k v :
  lookup_reg_info n (l ++ [(k, v)]) =
  match lookup_reg_info n l with Some r => Some r | None => if String.eqb k n then Some v else None end.
Proof.
  induction l as [|[k0 v0] t IH]; cbn [app lookup_reg_info]; [reflexivity|].
  destruct (String.eqb k0 n); [reflexivity | exact IH].
Qed.

Lemma lookup_reg_info_update n name v l :
  lookup_reg_info n (update_reg_info name v l) =
  match lookup_reg_info n l with None => None | Some r => if String.eqb name n then Some v else Some r end.
Proof.
  induction l as [|[k o] t IH]; cbn [update_reg_info lookup_reg_info]; [reflexivity|].
  destruct (String.eqb_spec k name) as [->|Hkn]; cbn [lookup_reg_info].
  - destruct (String.eqb name n); [reflexivity | destruct (lookup_reg_info n t); reflexivity].
  - destruct (String.eqb_spec k n) as [->|Hk]; [|exact IH].
    destruct (String.eqb_spec name n) as [->|_]; [congruence | reflexivity].
Qed.

(* none of the registers has been removed from the holder (Lower.st_removed, second argument of fin_pure) *)
Definition norem (rem : list string) : Prop := forall n, existsb (String.eqb (reg_prefix +++ n)) rem = false.
Lemma norem_nil : norem [].
Proof. intros n. reflexivity. Qed.

(* what the model state may change while a statement or expression of the fragment is lowered: nothing is
   pending, removed or numbered; the immediate prologue and the register table only grow *)
Definition st_ext (s s' : lstate) : Prop :=
  st_pending s' = st_pending s /\ (st_hcount s <= st_hcount s')%N /\ incl (st_imms s) (st_imms s') /\
  st_removed s' = st_removed s /\ (st_nonempty s = true -> st_nonempty s' = true) /\
  regs_le (st_regs s) (st_regs s').
Lemma st_ext_refl s : st_ext s s.
Proof. unfold st_ext. repeat split; auto using incl_refl, regs_le_refl, N.le_refl. Qed.
Lemma st_ext_trans a b c : st_ext a b -> st_ext b c -> st_ext a c.
Proof.
  intros [A1 [A2 [A3 [A4 [A5 A6]]]]] [B1 [B2 [B3 [B4 [B5 B6]]]]].
  repeat split; try congruence; eauto using incl_tran, regs_le_trans, N.le_trans.
Qed.

(* holder.is_empty() is false as soon as anything was registered *)
Definition started (st : lstate) : Prop := st_nonempty st = true \/ (st_vars st = [] /\ st_regs st = []).

(* Lower.add_reg enters a register under its name unless the name is there already (then the old entry stands, and the
   value read is typed by it): what all register-like operands share *)
Lemma add_reg_ok name ri st : regs_ok (st_regs st) -> entry_ok name ri ->
  exists st', add_reg name ri st = OK (mkpv (PRaw ("$reg:" +++ name)) (r_ty ri) (KReg name) [], st') /\
    st_vars st' = st_vars st /\ st_imms st' = st_imms st /\ st_ext st st' /\ regs_ok (st_regs st') /\
    (started st -> st_nonempty st' = true) /\
    exists ri', lookup_reg_info name (st_regs st') = Some ri'.
Proof.
  intros Hr He. unfold add_reg, bind, get, ret, reg_value.
  destruct (lookup_reg_info name (st_regs st)) as [old|] eqn:El.
  - exists st. rewrite (proj1 (proj2 (entry_same name ri old He (Hr _ _ El)))).
    repeat (split; [reflexivity || exact Hr || apply st_ext_refl|]). split; [|eauto].
    intros [Hs | [_ Hs]]; [exact Hs|]. rewrite Hs in El. discriminate El.
  - eexists. split; [reflexivity|]. cbn [st_vars st_regs st_nonempty st_imms].
    split; [reflexivity|]. split; [reflexivity|].
    split.
    { unfold st_ext; cbn [st_pending st_hcount st_imms st_removed st_nonempty st_regs].
      repeat split; auto using incl_refl, N.le_refl. intros n r H. exists r. rewrite lookup_reg_info_app, H. auto using acc_le_refl. }
    split.
    { intros n r. rewrite lookup_reg_info_app. destruct (lookup_reg_info n (st_regs st)) eqn:Eln.
      - intros H; injection H as <-. exact (Hr _ _ Eln).
      - destruct (String.eqb_spec name n) as [<-|_]; [|discriminate]. intros H; injection H as <-. exact He. }
    split; [reflexivity|].
    rewrite lookup_reg_info_app, El, String.eqb_refl. eauto.
Qed.

(* a register-like operand: Lower.lower_operand enters it by add_reg under the name of its key k, with the entry ri0, and
   the value read has the type (sg, w) *)
Definition reg_operand (o : operand) (k : rkey) (ri0 : reginfo) (sg : bool) (w : N) : Prop :=
  okw w /\ In k rkeys /\ entry_ok (tname k) ri0 /\ r_ty ri0 = ty_int sg w /\
  forall cfg st, lower_operand cfg o st = (do p <- add_reg (tname k) ri0; ret (IPure p)) st.

Lemma reg_operand_low cfg o k ri0 sg w st : reg_operand o k ri0 sg w -> regs_ok (st_regs st) ->
  exists st', lower_operand cfg o st =
                OK (IPure (mkpv (PRaw ("$reg:" +++ tname k)) (ty_int sg w) (KReg (tname k)) []), st') /\
    st_vars st' = st_vars st /\ st_imms st' = st_imms st /\ st_ext st st' /\ regs_ok (st_regs st') /\
    (started st -> st_nonempty st' = true) /\
    exists ri, lookup_reg_info (tname k) (st_regs st') = Some ri.
Proof.
  intros [_ [_ [He [Ht Hlow]]]] Hr. destruct (add_reg_ok (tname k) ri0 st Hr He) as [st' [L H]].
  exists st'. split; [|exact H]. rewrite Hlow. unfold bind. rewrite L, Ht. reflexivity.
Qed.

Lemma isa_operand cls letters acc new : reg_cls new cls -> access_of_letters letters = Some acc ->
  reg_operand (if new then ONewReg cls letters else OReg cls letters) (KeyIsa cls letters new)
    (mkreg (rop cls letters new) (ty_int true (dest_w cls acc)) acc (String.eqb (substring 0 1 letters) "x") false new)
    true (dest_w cls acc).
Proof.
  intros Hc Ha. destruct (access_letters _ _ Ha) as [Hl [_ [_ Hu]]].
  split; [exact (reg_w_okw new cls acc Hc)|]. split; [exact (isa_key _ _ _ (reg_cls_any _ _ Hc) Hl)|].
  split. { left. exists cls, letters, acc, new. cbn [r_op r_ty r_pc r_new r_acc]. auto 12. }
  split; [reflexivity|].
  intros cfg st. destruct new; cbn [lower_operand]; unfold lower_reg; rewrite Ha, (proj1 (reg_cls_widths _ cls Hc)); reflexivity.
Qed.
Lemma alias_operand name new : In name alias_names ->
  reg_operand (OAlias name new) (KeyAlias name new)
    (mkreg (alias_op name new) (ty_int false (alias_w name)) AUnknown (String.eqb (substring 1 1 (lower_ascii name)) "x") false new)
    false (alias_w name).
Proof.
  intros Hin. destruct (alias_facts name Hin) as [Hw [Hpc Hokw]].
  split; [exact Hokw|]. split; [exact (alias_key name new Hin)|].
  split. { right. left. exists name, new. cbn [r_op r_ty r_pc r_new]. auto 10. }
  split; [reflexivity|]. intros cfg st. cbn [lower_operand]. cbv zeta. rewrite Hw, Hpc. reflexivity.
Qed.
Lemma expl_operand name new : In name expl_names ->
  reg_operand (OExplicit name new) (KeyExpl name new)
    (mkreg (expl_op name new) (ty_int true (expl_w name)) AUnknown (String.eqb (substring 1 1 name) "x") false new)
    true (expl_w name).
Proof.
  intros Hin. destruct (expl_facts name new Hin) as [Hinfo [_ Hw]].
  split; [exact Hw|]. split; [exact (expl_key name new Hin)|].
  split. { right. right. right. exists name, new. cbn [r_op r_ty r_pc r_new]. auto 10. }
  split; [reflexivity|]. intros cfg st. cbn [lower_operand]. rewrite Hinfo. reflexivity.
Qed.
Lemma pc_operand :
  reg_operand (OAlias "PC" false) KeyPc (mkreg pc_op (ty_int false 32) AUnknown false true false) false 32.
Proof.
  split; [exact (or_intror (or_intror (or_introl eq_refl)))|]. split; [exact pc_key|].
  split. { right. right. left. unfold pc_entry. cbn [r_op r_ty r_pc r_new r_acc]. auto 10. }
  split; reflexivity.
Qed.

(* the C value an IL value stands for at the model type t: an IL boolean is the int 0 / 1 *)
Definition cval_of (t : vtype) (v : val) : cval :=
  match v with VB b => (int_t, if b then 1 else 0) | VBv w z => ((vt_sg t, w), z) end.
(* an IL value of the sort and range of the model type t *)
Definition shape (t : vtype) (v : val) : Prop :=
  if vt_bool t then exists b, v = VB b else exists z, v = VBv (vt_w t) z /\ 0 <= z < pow2 (vt_w t).
Definition intkind (k : kind) : Prop :=
  match k with KVar _ | KReg _ | KExec | KTmp _ false | KLit _ false | KMacro => True | _ => False end.
Definition boolkind (k : kind) : Prop :=
  match k with KBoolOp | KLit _ true => True | _ => False end.
(* an integer type, possibly carrying the HYBRID_LVAR flag (the compiler sets it on the type of a variable it has applied
   ++ / -- to; nothing in the repaired translation reads it): [ity t sg w] = "t is ty_int sg w up to that flag" *)
Definition ty_h (h sg : bool) (w : N) : vtype := mkvt sg w false false false false h false false.
Definition ity (t : vtype) (sg : bool) (w : N) : Prop := t = ty_h (vt_hyb t) sg w.
Lemma ity_int sg w : ity (ty_int sg w) sg w. Proof. reflexivity. Qed.
Lemma ity_h h sg w : ity (ty_h h sg w) sg w. Proof. reflexivity. Qed.
Lemma ity_inv t sg w : ity t sg w -> exists h, t = ty_h h sg w.
Proof. intros H. exists (vt_hyb t). exact H. Qed.
Lemma ity_eq t sg w : t = ty_int sg w -> ity t sg w. Proof. intros ->. reflexivity. Qed.
Lemma ity_const t sg w : ity t sg w -> vt_const t = false. Proof. intros ->. reflexivity. Qed.
Lemma ity_inj t sg w sg' w' : ity t sg w -> ity t sg' w' -> sg = sg' /\ w = w'.
Proof. unfold ity, ty_h. intros H1 H2. rewrite H1 in H2. injection H2. auto. Qed.

Definition unhyb (t : vtype) : vtype :=
  mkvt (vt_sg t) (vt_w t) (vt_bool t) (vt_void t) (vt_ext t) (vt_float t) false (vt_const t) (vt_tok t).
Definition unhyb_o (t : option vtype) : option vtype := option_map unhyb t.
Lemma unhyb_int sg w : unhyb (ty_int sg w) = ty_int sg w. Proof. reflexivity. Qed.
Lemma unhyb_ity t sg w : unhyb t = ty_int sg w -> ity t sg w.
Proof. destruct t as [a b c d e f g h i]. unfold unhyb, ity, ty_h, ty_int. cbn. intros H. injection H as -> -> -> -> -> -> -> ->. reflexivity. Qed.

(* the pvals of the fragment: boolean or integer typed, of the kinds the fragment produces, without hybrid temporaries *)
Definition goodpv (p : pval) : Prop :=
  (pv_ty p = ty_bool /\ boolkind (pv_kind p) /\ pv_tmps p = []) \/
  (exists sg w, okw w /\ ity (pv_ty p) sg w /\ intkind (pv_kind p) /\ pv_tmps p = []).
Lemma goodpv_tmps p : goodpv p -> pv_tmps p = [].
Proof. intros [[_ [_ H]] | [sg [w [_ [_ [_ H]]]]]]; exact H. Qed.
Lemma goodpv_tmps2 a c : goodpv a -> goodpv c -> pv_tmps a ++ pv_tmps c = [].
Proof. intros Ha Hc. rewrite (goodpv_tmps a Ha), (goodpv_tmps c Hc). reflexivity. Qed.

(* the type rules on integer types that may carry the hybrid flag: the flag of each operand is kept *)
Lemma promoted_vtype_h h sg w : okw w ->
  exists h', promoted_vtype (ty_h h sg w) = Some (ty_h h' (fst (promote (sg, w))) (snd (promote (sg, w)))).
Proof. intros H. okw_cases H; destruct sg; vm_compute; eexists; reflexivity. Qed.
Lemma c11_vtypes_h h1 s1 w1 h2 s2 w2 : okw w1 -> okw w2 ->
  c11_vtypes (ty_h h1 s1 w1) (ty_h h2 s2 w2) =
  Some (ty_h h1 (fst (uac (s1, w1) (s2, w2))) (snd (uac (s1, w1) (s2, w2))),
        ty_h h2 (fst (uac (s1, w1) (s2, w2))) (snd (uac (s1, w1) (s2, w2)))).
Proof. intros H1 H2. okw_cases H1; okw_cases H2; destruct s1, s2; vm_compute; reflexivity. Qed.
Lemma c11_vtypes_plain s1 w1 s2 w2 : okw w1 -> okw w2 ->
  c11_vtypes (ty_int s1 w1) (ty_int s2 w2) =
  Some (ty_int (fst (uac (s1, w1) (s2, w2))) (snd (uac (s1, w1) (s2, w2))),
        ty_int (fst (uac (s1, w1) (s2, w2))) (snd (uac (s1, w1) (s2, w2)))).
Proof. exact (c11_vtypes_h false s1 w1 false s2 w2). Qed.

Lemma okw32 : okw 32. Proof. unfold okw; auto. Qed.
Lemma okw64 : okw 64. Proof. unfold okw; auto. Qed.
(* auto proves okw 32 and okw 64, here and in the files that import this one *)
Global Hint Resolve okw32 okw64 : core.

(* the signatures of QEMU's pure bit-field macros (bitops.h / bswap.h) as the compiler's macro table
   (Resources/macros.json, gen/Resources.macs0) declares them: RzIL head, return type, parameter types *)
Definition std_macs : list macsig :=
  [ mkmac "bswap16" "BSWAP16" (ty_int false 16) [ty_int false 16];
    mkmac "bswap32" "BSWAP32" (ty_int false 32) [ty_int false 32];
    mkmac "bswap64" "BSWAP64" (ty_int false 64) [ty_int false 64];
    mkmac "extract64" "EXTRACT64" (ty_int false 64) [ty_int false 64; ty_int true 32; ty_int true 32];
    mkmac "sextract64" "SEXTRACT64" (ty_int true 64) [ty_int false 64; ty_int true 32; ty_int true 32];
    mkmac "deposit64" "DEPOSIT64" (ty_int false 64) [ty_int false 64; ty_int true 32; ty_int true 32; ty_int false 64];
    mkmac "deposit32" "DEPOSIT32" (ty_int false 32) [ty_int false 32; ty_int true 32; ty_int true 32; ty_int false 32];
    mkmac "extract32" "EXTRACT32" (ty_int false 32) [ty_int false 32; ty_int true 32; ty_int true 32] ].
(* a macro table that gives these eight names their standard signature (whatever else it contains) *)
Definition macs_std (macs : list macsig) : Prop :=
  forall sg, In sg std_macs -> find (fun s => String.eqb (mac_name s) (mac_name sg)) macs = Some sg.
Lemma macs_std_self : macs_std std_macs.
Proof. intros sg H. cbn [std_macs In] in H. repeat (destruct H as [<- | H]; [reflexivity|]). contradiction. Qed.

(* `sizeof(e)` and the call statement `STORE_SLOT_CANCELLED(a, b)` are written like calls of a sub-routine; the compiler
   treats them specially only when its sub-routine table (Lower.cfg_subs) does not declare the name, and CSem looks the
   name up in its own table of sub-routine bodies.  The theorems assume that neither table knows the two names. *)
Definition ext_calls : list string := ["STORE_SLOT_CANCELLED"; "sizeof"].
Definition subs_ext (subsigs : list subsig) : Prop :=
  forall f, In f ext_calls -> find (fun s => String.eqb (sub_name s) f) subsigs = None.
Definition csub_ext (csub : csubs) : Prop := forall f, In f ext_calls -> csub f = None.
Lemma subs_ext_nil : subs_ext [].
Proof. intros f _. reflexivity. Qed.
Lemma csub_ext_none : csub_ext (fun _ => None).
Proof. intros f _. reflexivity. Qed.

Definition touched (st : lstate) : lstate :=
  mkst (st_vars st) (st_regs st) (st_pending st) (st_hcount st) (st_imms st) true (st_removed st).
Lemma touch_eq st : touch st = OK (tt, touched st).
Proof. reflexivity. Qed.
Lemma st_ext_touched st : st_ext st (touched st).
Proof. unfold st_ext, touched; cbn. repeat split; auto using incl_refl, regs_le_refl, N.le_refl. Qed.

Lemma read_bytes_rel (E : cenv) cs ms : cs_mem cs = mem ms -> (forall a, ce_mem0 E a = mem0 ms a) ->
  forall n a, c_read_bytes E cs a n = read_bytes ms a n.
Proof.
  intros Hm H0. unfold c_read_bytes. induction n as [|n IH]; intros a; [reflexivity|].
  cbn [read_bytes]. rewrite <- IH. unfold read_byte. rewrite Hm, H0. reflexivity.
Qed.

Definition i32_t : cty := (true, 32%N).
Lemma conv_range t c : 0 <= snd (conv t c) < pow2 (snd t).
Proof. unfold conv, mkval. cbn [snd]. apply wrap_range. Qed.
(* start and length of a bit field: CSem reads them as int and rejects negative ones; the IL takes the representative *)
Lemma i32_nonneg c : 0 <= vint (conv int_t c) -> vint (conv int_t c) = snd (conv i32_t c).
Proof. intros H. unfold vint in *. cbn [fst] in *. apply interp_nonneg; auto. apply (conv_range i32_t c). Qed.

Lemma extract_range w x s l : 0 <= extract w x s l < pow2 w.
Proof. unfold extract. apply wrap_range. Qed.

(* each macro of the table: RzIL.app_sem on the converted arguments yields an in-range z, and it is what CSem.c_macro
   yields whenever that is defined (it is not when start / length are out of range).  The 32- and 64-bit variants of a
   macro differ in the width only, so each is stated once, for the two (three) triples of width and names *)
Lemma mac_extract w rz m : (w, rz, m) = (32%N, "EXTRACT32", "extract32") \/ (w, rz, m) = (64%N, "EXTRACT64", "extract64") ->
  forall cx cs cl,
  exists z, app_sem rz [VBv w (snd (conv (false, w) cx)); VBv 32 (snd (conv i32_t cs)); VBv 32 (snd (conv i32_t cl))] = Some (VBv w z) /\
    0 <= z < pow2 w /\ forall r, c_macro m [cx; cs; cl] = Some r -> r = ((false, w), z).
Proof.
  intros [E | E] cx cs cl; injection E as -> -> ->;
  (eexists; split; [reflexivity|]; split; [apply extract_range|];
   intros r H; cbn [c_macro] in H; destruct (_ && _) eqn:Ec in H; [|discriminate H];
   rewrite !i32_nonneg in H by lia; injection H as <-; unfold mkval; cbn [snd]; f_equal; unfold extract; apply wrap_idem).
Qed.
Lemma mac_sextract64 cx cs cl :
  exists z, app_sem "SEXTRACT64" [VBv 64 (snd (conv (false, 64%N) cx)); VBv 32 (snd (conv i32_t cs)); VBv 32 (snd (conv i32_t cl))] = Some (VBv 64 z) /\
    0 <= z < pow2 64 /\ forall r, c_macro "sextract64" [cx; cs; cl] = Some r -> r = ((true, 64%N), z).
Proof.
  eexists. split; [reflexivity|]. split; [apply wrap_range|].
  intros r H. cbn [c_macro] in H. destruct (_ && _) eqn:Ec in H; [|discriminate H].
  assert (El : 0 <? snd (conv i32_t cl) = true) by (rewrite <- i32_nonneg; lia).
  rewrite !i32_nonneg in H by lia. injection H as <-. rewrite El. reflexivity.
Qed.
Lemma mac_deposit w rz m : (w, rz, m) = (32%N, "DEPOSIT32", "deposit32") \/ (w, rz, m) = (64%N, "DEPOSIT64", "deposit64") ->
  forall cx cs cl cf,
  exists z, app_sem rz [VBv w (snd (conv (false, w) cx)); VBv 32 (snd (conv i32_t cs)); VBv 32 (snd (conv i32_t cl));
                        VBv w (snd (conv (false, w) cf))] = Some (VBv w z) /\
    0 <= z < pow2 w /\ forall r, c_macro m [cx; cs; cl; cf] = Some r -> r = ((false, w), z).
Proof.
  intros [E | E] cx cs cl cf; injection E as -> -> ->;
  (eexists; split; [reflexivity|]; split; [apply wrap_range|];
   intros r H; cbn [c_macro] in H; destruct (_ && _) eqn:Ec in H; [|discriminate H];
   rewrite !i32_nonneg in H by lia; injection H as <-; reflexivity).
Qed.
(* the bound on the swapped value is a sum of byte-sized terms: lia, with its division equations *)
Lemma mac_bswap w rz m : (w, rz, m) = (16%N, "BSWAP16", "bswap16") \/ (w, rz, m) = (32%N, "BSWAP32", "bswap32") \/
                         (w, rz, m) = (64%N, "BSWAP64", "bswap64") ->
  forall cx, exists z, app_sem rz [VBv w (snd (conv (false, w) cx))] = Some (VBv w z) /\ 0 <= z < pow2 w /\
    forall r, c_macro m [cx] = Some r -> r = ((false, w), z).
Proof.
  intros H cx. pose proof (conv_range (false, w) cx) as Rx. cbn [snd] in Rx.
  destruct H as [E | [E | E]]; injection E as -> -> ->;
  (rewrite ?pow2_16, ?pow2_32, ?pow2_64 in *; eexists; split; [reflexivity|]; split; [lia|];
   intros r H; cbn [c_macro] in H; injection H as <-; unfold mkval; cbn [snd]; f_equal; apply wrap_small;
   rewrite ?pow2_16, ?pow2_32, ?pow2_64; lia).
Qed.

Section Correct.
  Variables (subsigs : list subsig) (macs : list macsig) (cret : option vtype) (hstart : N).
  (* the macro table gives QEMU's bit-field macros their standard signatures (only the lemmas about EMacro use this) *)
  Hypothesis Hmacs : macs_std macs.
  (* `sizeof` is not a compiled sub-routine (only the lemma about sizeof uses this) *)
  Hypothesis Hsubs : subs_ext subsigs.
  Local Notation cfg := (mkcfg all_fixes subsigs macs [] cret hstart).
  Variable rw : regwidth.
  (* the register table and the removed names against which the emitted term is finalised (Lower.fin_pure):
     register operands are resolved at emission time, from the FINAL access kind of the register *)
  Variables (R : list (string * reginfo)) (rem : list string).
  Local Notation fin := (fin_pure R rem).
  (* the immediates the behaviour uses (any set of letters; [imm_letter] = all the grammar has).  The model
     keeps immediates and declared locals in one table: no declared local may be named like one of them *)
  Variable IM : string -> bool.

  Definition sem (ms : mstate) (p : pval) (v : val) : Prop :=
    eval rw ms [] (fin (pv_term p)) = Some v /\ shape (pv_ty p) v.

  Lemma sem_bool ms p v : pv_ty p = ty_bool -> sem ms p v ->
    exists b, v = VB b /\ eval rw ms [] (fin (pv_term p)) = Some (VB b).
  Proof. intros Ht [He Hs]. rewrite Ht in Hs. destruct Hs as [b ->]. eauto. Qed.
  Lemma sem_int ms p v sg w : ity (pv_ty p) sg w -> sem ms p v ->
    exists z, v = VBv w z /\ 0 <= z < pow2 w /\ eval rw ms [] (fin (pv_term p)) = Some (VBv w z).
  Proof. intros Ht [He Hs]. rewrite Ht in Hs. destruct Hs as [z [-> Hz]]. eauto. Qed.

  Lemma shape_h h sg w z : 0 <= z < pow2 w -> shape (ty_h h sg w) (VBv w z).
  Proof. intros. unfold shape. cbn [vt_bool ty_h vt_w]. eauto. Qed.
  Lemma shape_int sg w z : 0 <= z < pow2 w -> shape (ty_int sg w) (VBv w z).
  Proof. apply (shape_h false). Qed.
  Lemma shape_ity t sg w z : ity t sg w -> 0 <= z < pow2 w -> shape t (VBv w z).
  Proof. intros Ht. rewrite Ht. apply shape_h. Qed.
  Lemma shape_bool b : shape ty_bool (VB b).
  Proof. unfold shape. cbn [vt_bool ty_bool]. eauto. Qed.
  Definition cty_of (t : vtype) : cty := if vt_bool t then int_t else (vt_sg t, vt_w t).

  Lemma fst_cval_of t v : shape t v -> fst (cval_of t v) = cty_of t.
  Proof.
    unfold shape, cty_of. destruct (vt_bool t).
    - intros [b ->]. reflexivity.
    - intros [z [-> _]]. reflexivity.
  Qed.

  Lemma cval_of_ity t sg w z : ity t sg w -> cval_of t (VBv w z) = ((sg, w), z).
  Proof. intros ->. reflexivity. Qed.
  Lemma cty_of_ity t sg w : ity t sg w -> cty_of t = (sg, w).
  Proof. intros ->. reflexivity. Qed.

  Lemma wfc_cval_of p v : goodpv p -> shape (pv_ty p) v -> wfc (cval_of (pv_ty p) v).
  Proof.
    intros [[Ht _] | [sg [w [Hw [Ht _]]]]] Hs; rewrite Ht in *.
    - destruct Hs as [b ->]. cbn. split; [auto|]. destruct b; cbn; lia.
    - destruct Hs as [z [-> Hz]]. cbn in *. split; auto.
  Qed.

  Lemma goodpv_i p sg w : okw w -> ity (pv_ty p) sg w -> intkind (pv_kind p) -> pv_tmps p = [] -> goodpv p.
  Proof. intros. right. exists sg, w. auto. Qed.
  Lemma goodpv_b p : pv_ty p = ty_bool -> boolkind (pv_kind p) -> pv_tmps p = [] -> goodpv p.
  Proof. intros. left. auto. Qed.
  (* finishes a goodpv goal once the disjunct and the witnesses are chosen *)
  Ltac gp := cbn [pv_ty pv_kind pv_tmps intkind boolkind app]; repeat split;
             auto using ity_int, ity_h, goodpv_tmps2, goodpv_tmps; try exact I; try reflexivity.

  Lemma vtype_eqb_h h1 s1 w1 h2 s2 w2 : vtype_eqb (ty_h h1 s1 w1) (ty_h h2 s2 w2) = true -> s1 = s2 /\ w1 = w2.
  Proof. unfold vtype_eqb; cbn. intros H. split; [destruct s1, s2; cbn in H; try lia; reflexivity | lia]. Qed.
  Lemma vtype_eqb_int s1 w1 s2 w2 : vtype_eqb (ty_int s1 w1) (ty_int s2 w2) = true -> s1 = s2 /\ w1 = w2.
  Proof. apply (vtype_eqb_h false s1 w1 false s2 w2). Qed.

  (* the term Lower.init_a_cast emits for an integer source: a widening CAST fills with the sign bit of a signed source,
     a narrowing one with anything (nn, OpTables.cast_il_exec's "the source is a non-negative constant", only matters for a
     widening cast, which the repaired model does not emit through cast_il_exec) *)
  Lemma cast_eval T S (nn : bool) tm ms z : okw (vt_w S) ->
    eval rw ms [] (fin tm) = Some (VBv (vt_w S) z) -> 0 <= z < pow2 (vt_w S) ->
    eval rw ms [] (fin (if (vt_w S <? vt_w T)%N then PCast (vt_w T) (if vt_sg S then PMsb tm else PBool false) tm
                        else cast_il_exec T S nn tm)) =
    Some (VBv (vt_w T) (wrap (vt_w T) (interp (vt_sg S, vt_w S) z))).
  Proof.
    intros Hw0 He Hz. destruct (vt_w S <? vt_w T)%N eqn:Elt.
    - destruct (vt_sg S); cbn [fin_pure eval]; rewrite He; f_equal; f_equal.
      + apply (cast_widen (vt_w S) (vt_w T) true z); auto using okw_pos.
      + apply (cast_widen (vt_w S) (vt_w T) false z); auto using okw_pos.
    - unfold cast_il_exec. rewrite Elt, andb_false_r. cbn [andb]. rewrite orb_false_r.
      destruct (vt_sg T && vt_sg S); cbn [fin_pure eval]; rewrite He; f_equal; f_equal; apply cast_narrow; lia.
  Qed.

  (* [conv_to sg w p p']: p' evaluates to the value of p converted to the C type (sg, w) *)
  Definition conv_to (sg : bool) (w : N) (p p' : pval) : Prop :=
    forall ms v, sem ms p v ->
      exists z, 0 <= z < pow2 w /\ eval rw ms [] (fin (pv_term p')) = Some (VBv w z) /\
                conv (sg, w) (cval_of (pv_ty p) v) = ((sg, w), z).
  (* Lower.init_a_cast to an integer or Token-width type T that differs from the type of p: a boolean becomes 0 / 1, an
     integer is cast *)
  Lemma init_a_cast_ne T p st : T = mkvt (vt_sg T) (vt_w T) false false false false (vt_hyb T) false (vt_tok T) ->
    goodpv p -> vtype_eqb T (pv_ty p) = false ->
    exists p', init_a_cast cfg T p st = OK (p', st) /\ pv_ty p' = T /\ pv_kind p' = KExec /\ pv_tmps p' = [] /\
      conv_to (vt_sg T) (vt_w T) p p'.
  Proof.
    intros HT Hp Hne. destruct T as [sg w tb tv te tf th tc tk]. cbn [vt_sg vt_w vt_hyb vt_tok] in *.
    injection HT; intros; subst. clear HT. destruct p as [tm ty k tmps].
    destruct Hp as [[Ht [Hk Htm]] | [sg0 [w0 [Hw0 [Ht [Hk Htm]]]]]]; cbn [pv_ty pv_kind pv_tmps] in *; subst tmps.
    - (* boolean source *)
      subst ty. unfold init_a_cast, bind, ty_eq, ret.
      cbn [pv_ty pv_kind pv_tmps vt_float ty_bool orb is_numeric vt_void vt_ext negb andb]. rewrite Hne.
      assert (Hcw : match k with KBoolOp => true | KLit _ true => fx_bool_int (fx cfg) | _ => false end = true).
      { destruct k as [? [|]| | | | | | | |]; cbn in Hk; try contradiction; reflexivity. }
      rewrite Hcw. cbn [vt_bool ty_bool andb negb cond_wrap rd pv_term].
      eexists; split; [reflexivity|]. repeat (split; [reflexivity|]).
      intros ms v Hs. apply sem_bool in Hs; [|reflexivity]. destruct Hs as [b [-> He]]. cbn [pv_term] in He.
      exists (if b then wrap w 1 else wrap w 0). split; [destruct b; apply wrap_range|]. split.
      + cbn [pv_term fin_pure eval lit_pure vt_sg vt_w]. rewrite He. cbn [sort_of_val sort_eqb]. rewrite N.eqb_refl.
        destruct b; reflexivity.
      + cbn [pv_ty cval_of]. unfold conv, mkval, vint, int_t, interp. cbn [fst snd]. destruct b; f_equal.
    - (* integer source *)
      destruct (ity_inv _ _ _ Ht) as [h0 Et]. subst ty. clear Ht.
      unfold init_a_cast, bind, ty_eq, ret.
      cbn [pv_ty pv_kind pv_tmps vt_float ty_h orb is_numeric vt_void vt_ext negb andb]. rewrite Hne.
      cbn [vt_bool ty_h andb fx cfg_fx fx_cast_fill all_fixes vt_w vt_sg rd pv_term].
      eexists; split; [reflexivity|]. repeat (split; [reflexivity|]).
      intros ms v Hs. eapply sem_int in Hs; [|apply ity_h]. destruct Hs as [z [-> [Hz He]]]. cbn [pv_term] in He.
      exists (wrap w (interp (sg0, w0) z)). split; [apply wrap_range|]. split; [|reflexivity].
      exact (cast_eval (mkvt sg w false false false false th false tk) (ty_h h0 sg0 w0) _ _ ms z Hw0 He Hz).
  Qed.

  Lemma init_a_cast_gen T sg w p st : okw w -> ity T sg w -> goodpv p ->
    exists p', init_a_cast cfg T p st = OK (p', st) /\ goodpv p' /\ ity (pv_ty p') sg w /\
      (forall v b, pv_kind p' = KLit v b -> p' = p) /\
      forall ms v, sem ms p v ->
        exists v', sem ms p' v' /\ cval_of (pv_ty p') v' = conv (sg, w) (cval_of (pv_ty p) v).
  Proof.
    intros Hw HT Hp. destruct (ity_inv _ _ _ HT) as [hT ->].
    destruct (vtype_eqb (ty_h hT sg w) (pv_ty p)) eqn:Eeq.
    - (* the same type up to the flag: p itself *)
      pose proof Hp as [[Ht _] | [s0 [w0 [Hw0 [Ht _]]]]].
      { rewrite Ht in Eeq. exfalso. unfold vtype_eqb in Eeq. cbn in Eeq. okw_cases Hw; discriminate. }
      destruct (ity_inv _ _ _ Ht) as [h0 E]. pose proof Eeq as Eeq'. rewrite E in Eeq'.
      apply vtype_eqb_h in Eeq'. destruct Eeq' as [<- <-].
      exists p. split. { unfold init_a_cast, bind, ty_eq, ret. rewrite Eeq, E. reflexivity. }
      split; [exact Hp|]. split; [exact Ht|]. split; [reflexivity|].
      intros ms v Hs. exists v. split; [exact Hs|].
      destruct (sem_int ms p v sg w Ht Hs) as [z [-> [Hz _]]]. rewrite (cval_of_ity _ sg w z Ht).
      symmetry. apply (conv_same ((sg, w), z)). split; auto.
    - destruct (init_a_cast_ne (ty_h hT sg w) p st eq_refl Hp Eeq) as (p' & H1 & Ty & Kd & Tm & Hc). cbn [vt_sg vt_w ty_h] in Hc.
      assert (Tp : ity (pv_ty p') sg w) by (rewrite Ty; apply ity_h).
      exists p'. split; [exact H1|]. split; [apply (goodpv_i _ sg w); [exact Hw | exact Tp | rewrite Kd; exact I | exact Tm]|].
      split; [exact Tp|]. split; [intros v b Hk; rewrite Kd in Hk; discriminate Hk|].
      intros ms v Hs. destruct (Hc ms v Hs) as (z & Hz & He & Cz). exists (VBv w z).
      split; [split; [exact He | apply (shape_ity _ sg w); assumption]|]. rewrite (cval_of_ity _ sg w z Tp). symmetry. exact Cz.
  Qed.

  Lemma init_a_cast_ok sg w p st : okw w -> goodpv p ->
    exists p', init_a_cast cfg (ty_int sg w) p st = OK (p', st) /\ goodpv p' /\ ity (pv_ty p') sg w /\
      (forall v b, pv_kind p' = KLit v b -> p' = p) /\
      forall ms v, sem ms p v ->
        exists v', sem ms p' v' /\ cval_of (pv_ty p') v' = conv (sg, w) (cval_of (pv_ty p) v).
  Proof. intros Hw Hp. exact (init_a_cast_gen (ty_int sg w) sg w p st Hw (ity_int sg w) Hp). Qed.

  Lemma goodpv_numeric p : goodpv p -> is_numeric (pv_ty p) = true /\ vt_const (pv_ty p) = false.
  Proof. intros [[Ht _] | [s0 [w0 [_ [Ht _]]]]]; rewrite Ht; split; reflexivity. Qed.

  (* between integer types of one width the representative does not change *)
  Lemma conv_to_same sg s0 w p : ity (pv_ty p) s0 w -> conv_to sg w p p.
  Proof.
    intros Ht ms v Hs. destruct (sem_int ms p v s0 w Ht Hs) as (z & -> & Hz & He).
    exists z. split; [exact Hz|]. split; [exact He|]. rewrite (cval_of_ity _ s0 w z Ht).
    unfold conv, mkval, vint. cbn [fst snd]. rewrite wrap_interp, (wrap_small w z Hz). reflexivity.
  Qed.
  Lemma conv_to_cast T sg w p st : okw w -> ity T sg w -> goodpv p ->
    exists p', init_a_cast cfg T p st = OK (p', st) /\ ity (pv_ty p') sg w /\ goodpv p' /\ conv_to sg w p p'.
  Proof.
    intros Hw HT Hg.
    destruct (init_a_cast_gen T sg w p st Hw HT Hg) as (p' & H1 & H2 & H3 & _ & H5).
    exists p'. split; [exact H1|]. split; [exact H3|]. split; [exact H2|].
    intros ms v Hs. destruct (H5 ms v Hs) as (v' & Hs' & Hc).
    destruct (sem_int ms p' v' sg w H3 Hs') as (z & -> & Hz & He).
    exists z. split; [exact Hz|]. split; [exact He|]. rewrite <- Hc, (cval_of_ity _ sg w z H3). reflexivity.
  Qed.

  Lemma vtype_eqb_sym a b : vtype_eqb a b = vtype_eqb b a.
  Proof. unfold vtype_eqb. destruct (vt_tok a), (vt_tok b), (vt_sg a), (vt_sg b); cbn; rewrite ?(N.eqb_sym (vt_w a)); reflexivity. Qed.
  Lemma vtype_eqb_refl t : vtype_eqb t t = true.
  Proof. unfold vtype_eqb. rewrite !eqb_reflx, N.eqb_refl. reflexivity. Qed.
  Lemma ty_eq_sym a b : ty_eq a b = ty_eq b a.
  Proof. unfold ty_eq. rewrite andb_comm, vtype_eqb_sym. reflexivity. Qed.

  (* a value is converted to an integer type T only if its type differs from T: argument passing, the conversion of a
     compound assignment's result back to the type of its destination (D14 repaired) *)
  Lemma conv_back_ok T src st sg w : okw w -> ity T sg w -> goodpv src ->
    exists src', (do eq <- ty_eq T (pv_ty src); if eq then ret src else init_a_cast cfg T src) st = OK (src', st) /\
      ity (pv_ty src') sg w /\ goodpv src' /\ conv_to sg w src src'.
  Proof.
    intros Hw HT Hg. destruct (ity_inv _ _ _ HT) as [hT ET]. unfold bind, ty_eq.
    assert (Hn : is_numeric T = true) by (rewrite ET; reflexivity). rewrite Hn, (proj1 (goodpv_numeric src Hg)). cbn [andb ret].
    destruct (vtype_eqb T (pv_ty src)) eqn:Eeq; [|exact (conv_to_cast T sg w src st Hw HT Hg)].
    exists src. split; [reflexivity|]. rewrite ET in Eeq.
    assert (Ht : ity (pv_ty src) sg w).
    { pose proof Hg as [[Ht _] | (s0 & w0 & Hw0 & Ht & _)].
      - rewrite Ht in Eeq. exfalso. unfold vtype_eqb in Eeq. cbn in Eeq. okw_cases Hw; discriminate.
      - destruct (ity_inv _ _ _ Ht) as [h0 Et]. rewrite Et in Eeq.
        apply (vtype_eqb_h hT sg w h0 s0 w0) in Eeq. destruct Eeq as [<- <-]. exact Ht. }
    split; [exact Ht|]. split; [exact Hg | exact (conv_to_same sg sg w src Ht)].
  Qed.

  Lemma promote_cases t : promote t = t \/ promote t = int_t.
  Proof. unfold promote. destruct (snd t <? 32)%N; auto. Qed.

  Lemma promotion_cast_ok p st : goodpv p ->
    exists p', promotion_cast cfg p st = OK (p', st) /\ goodpv p' /\
      ity (pv_ty p') (fst (promote (cty_of (pv_ty p)))) (snd (promote (cty_of (pv_ty p)))) /\
      okw (snd (promote (cty_of (pv_ty p)))) /\
      (forall v b, pv_kind p' = KLit v b -> p' = p) /\
      forall ms v, sem ms p v ->
        exists v', sem ms p' v' /\ cval_of (pv_ty p') v' = conv (promote (cty_of (pv_ty p))) (cval_of (pv_ty p) v).
  Proof.
    intros Hp. unfold promotion_cast, bind, need_numeric, ret.
    pose proof Hp as [[Ht Hk] | [sg0 [w0 [Hw0 [Ht Hk]]]]].
    - rewrite Ht. cbn [is_numeric ty_bool vt_void vt_ext negb andb]. rewrite promoted_vtype_bool.
      unfold ty_eq, ret. cbn [is_numeric ty_bool ty_int vt_void vt_ext negb andb].
      change (vtype_eqb (ty_int true 32) ty_bool) with false. cbv iota.
      destruct (init_a_cast_ok true 32 p st okw32 Hp) as [p' [H1 [H2 [H3 [H4 H5]]]]].
      exists p'. rewrite <- Ht. split; [exact H1|]. split; [exact H2|]. rewrite Ht. cbn. split; [exact H3|]. split; [auto|].
      split; [exact H4|]. intros ms v Hs. destruct (H5 ms v Hs) as [v' [Hs' Hc]]. exists v'. split; auto. rewrite Ht in Hc. exact Hc.
    - destruct (ity_inv _ _ _ Ht) as [h0 E]. rewrite E. cbn [is_numeric ty_h vt_void vt_ext negb andb].
      destruct (promoted_vtype_h h0 sg0 w0 Hw0) as [h' Ep]. rewrite Ep.
      unfold ty_eq, ret. cbn [is_numeric ty_h vt_void vt_ext negb andb].
      unfold cty_of. cbn [vt_bool ty_h vt_sg vt_w].
      pose proof (promote_okw sg0 w0 Hw0) as Hpw.
      destruct (vtype_eqb _ _) eqn:Eeq.
      + apply vtype_eqb_h in Eeq. destruct Eeq as [E1 E2].
        exists p. split; [reflexivity|]. split; [auto|]. rewrite E1, E2. split; [exact Ht|]. split; [auto|]. split; [reflexivity|].
        intros ms v Hs. exists v. split; auto.
        destruct (sem_int ms p v sg0 w0 Ht Hs) as [z [-> [Hz He]]]. rewrite E.
        cbn [cval_of vt_sg vt_w ty_h] in *.
        replace (promote (sg0, w0)) with (sg0, w0) by (destruct (promote (sg0, w0)); cbn in *; congruence).
        symmetry. apply (conv_same ((sg0, w0), z)). split; auto.
      + destruct (init_a_cast_gen (ty_h h' (fst (promote (sg0, w0))) (snd (promote (sg0, w0)))) _ _ p st Hpw (ity_h _ _ _) Hp)
          as [p' [H1 [H2 [H3 [H4 H5]]]]].
        exists p'. rewrite <- E. split; [exact H1|]. split; [exact H2|]. split; [exact H3|]. split; [auto|].
        split; [exact H4|]. intros ms v Hs. destruct (H5 ms v Hs) as [v' [Hs' Hc]]. exists v'. split; auto.
        rewrite Hc. rewrite E. destruct (promote (sg0, w0)); reflexivity.
  Qed.

  Lemma goodpv_int p sg w : okw w -> ity (pv_ty p) sg w -> goodpv p -> intkind (pv_kind p).
  Proof. intros Hw Ht [[Hb _] | [s0 [w0 [_ [_ [Hk _]]]]]]; [rewrite Ht in Hb; discriminate | exact Hk]. Qed.

  Lemma uac_same s w : uac (s, w) (s, w) = (s, w).
  Proof. unfold uac; cbn [fst snd]. rewrite eqb_reflx. rewrite N.max_id. reflexivity. Qed.

  (* conversion of one operand to the common type T, as cast_operands does it *)
  Lemma maybe_cast_ok T sg w p st s0 w0 : okw w -> ity T sg w -> goodpv p -> ity (pv_ty p) s0 w0 ->
    exists p', (if negb (N.eqb (vt_w T) (vt_w (pv_ty p))) || negb (Bool.eqb (vt_sg T) (vt_sg (pv_ty p)))
                then init_a_cast cfg T p else ret p) st = OK (p', st) /\ goodpv p' /\
      ity (pv_ty p') sg w /\
      forall ms v, sem ms p v ->
        exists v', sem ms p' v' /\ cval_of (pv_ty p') v' = conv (sg, w) (cval_of (pv_ty p) v).
  Proof.
    intros Hw HT Hg Ht.
    destruct (negb (N.eqb (vt_w T) (vt_w (pv_ty p))) || negb (Bool.eqb (vt_sg T) (vt_sg (pv_ty p)))) eqn:E.
    - destruct (init_a_cast_gen T sg w p st Hw HT Hg) as [p' [H1 [H2 [H3 [H4 H5]]]]]. exists p'. auto.
    - rewrite HT, Ht in E. cbn [vt_w vt_sg ty_h] in E.
      assert (w = w0) by lia. assert (sg = s0) by (destruct sg, s0; cbn in E; try lia; reflexivity). subst w0 s0.
      exists p. split; [reflexivity|]. split; [auto|]. split; [auto|].
      intros ms v Hs. exists v. split; auto.
      destruct (sem_int ms p v sg w Ht Hs) as [z [-> [Hz He]]]. rewrite (cval_of_ity _ sg w z Ht).
      symmetry. apply (conv_same ((sg, w), z)). split; auto.
  Qed.

  Lemma cast_operands_ok a b st sa wa sb wb : okw wa -> okw wb -> goodpv a -> goodpv b ->
    ity (pv_ty a) sa wa -> ity (pv_ty b) sb wb ->
    exists a' b', cast_operands cfg false a b st = OK ((a', b'), st) /\ goodpv a' /\ goodpv b' /\
      ity (pv_ty a') (fst (uac (sa, wa) (sb, wb))) (snd (uac (sa, wa) (sb, wb))) /\
      ity (pv_ty b') (fst (uac (sa, wa) (sb, wb))) (snd (uac (sa, wa) (sb, wb))) /\
      forall ms va vb, sem ms a va -> sem ms b vb ->
        exists va' vb', sem ms a' va' /\ sem ms b' vb' /\
          cval_of (pv_ty a') va' = conv (uac (sa, wa) (sb, wb)) (cval_of (pv_ty a) va) /\
          cval_of (pv_ty b') vb' = conv (uac (sa, wa) (sb, wb)) (cval_of (pv_ty b) vb).
  Proof.
    intros Hwa Hwb Hga Hgb Hta Htb.
    destruct (ity_inv _ _ _ Hta) as [ha Ea]. destruct (ity_inv _ _ _ Htb) as [hb Eb].
    unfold cast_operands, bind, ty_eq, ret. rewrite Ea, Eb.
    cbn [is_numeric ty_h vt_void vt_ext negb andb].
    destruct (vtype_eqb (ty_h ha sa wa) (ty_h hb sb wb)) eqn:Eeq.
    - apply vtype_eqb_h in Eeq. destruct Eeq as [<- <-]. rewrite uac_same. cbn [fst snd].
      exists a, b. split; [reflexivity|]. repeat (split; [assumption|]).
      intros ms va vb Hsa Hsb. exists va, vb. split; [auto|]. split; [auto|].
      destruct (sem_int ms a va sa wa Hta Hsa) as [za [-> [Hza _]]].
      destruct (sem_int ms b vb sa wa Htb Hsb) as [zb [-> [Hzb _]]].
      rewrite Ea, Eb. cbn [cval_of vt_sg vt_w ty_h].
      split; symmetry; [apply (conv_same ((sa, wa), za)) | apply (conv_same ((sa, wa), zb))]; split; auto.
    - rewrite c11_vtypes_h by auto.
      pose proof (uac_okw sa wa sb wb Hwa Hwb) as Hwu.
      destruct (uac (sa, wa) (sb, wb)) as [su wu] eqn:Eu. cbn [fst snd] in *.
      destruct (maybe_cast_ok (ty_h ha su wu) su wu a st sa wa Hwu (ity_h _ _ _) Hga Hta) as [a' [A1 [A2 [A3 A4]]]].
      rewrite Ea in A1. unfold ret in A1. rewrite A1.
      destruct (maybe_cast_ok (ty_h hb su wu) su wu b st sb wb Hwu (ity_h _ _ _) Hgb Htb) as [b' [B1 [B2 [B3 B4]]]].
      rewrite Eb in B1. unfold ret in B1. rewrite B1.
      exists a', b'. split; [reflexivity|]. repeat (split; [assumption|]).
      intros ms va vb Hsa Hsb.
      destruct (A4 ms va Hsa) as [va' [Sa Ca]]. destruct (B4 ms vb Hsb) as [vb' [Sb Cb]].
      exists va', vb'. rewrite Ea, Eb in *. auto.
  Qed.

  Lemma cval_of_t p (t : cty) x : ity (pv_ty p) (fst t) (snd t) -> cval_of (pv_ty p) (VBv (snd t) x) = (t, x).
  Proof. intros H. rewrite (cval_of_ity _ _ _ x H). destruct t; reflexivity. Qed.

  (* the operand preparation shared by + - * & | ^ comparisons and ?: both operands are promoted and brought to their
     common type T; their values x y at that type are the C values converted to T *)
  Lemma prep_ok a c st : goodpv a -> goodpv c ->
    let T := arith_ty (cty_of (pv_ty a)) (cty_of (pv_ty c)) in
    exists a' c', (do pa <- promotion_cast cfg a; do pc <- promotion_cast cfg c; cast_operands cfg false pa pc) st = OK ((a', c'), st) /\
      goodpv a' /\ goodpv c' /\ ity (pv_ty a') (fst T) (snd T) /\ ity (pv_ty c') (fst T) (snd T) /\ okw (snd T) /\
      forall ms va vc, sem ms a va -> sem ms c vc ->
        exists x y, sem ms a' (VBv (snd T) x) /\ sem ms c' (VBv (snd T) y) /\
          arith_ty (fst (cval_of (pv_ty a) va)) (fst (cval_of (pv_ty c) vc)) = T /\
          conv T (cval_of (pv_ty a) va) = (T, x) /\ conv T (cval_of (pv_ty c) vc) = (T, y).
  Proof.
    intros Hga Hgc T. unfold bind.
    destruct (promotion_cast_ok a st Hga) as [pa [A1 [A2 [A3 [A4 [_ A5]]]]]]. rewrite A1.
    destruct (promotion_cast_ok c st Hgc) as [pc [C1 [C2 [C3 [C4 [_ C5]]]]]]. rewrite C1.
    destruct (cast_operands_ok pa pc st _ _ _ _ A4 C4 A2 C2 A3 C3) as [a' [c' [H1 [H2 [H3 [H4 [H5 H6]]]]]]].
    rewrite <- !surjective_pairing in H4, H5, H6. fold (arith_ty (cty_of (pv_ty a)) (cty_of (pv_ty c))) in H4, H5, H6. fold T in H4, H5, H6.
    exists a', c'. split; [exact H1|]. repeat (split; [assumption|]).
    split; [unfold T, arith_ty; rewrite (surjective_pairing (promote (cty_of (pv_ty a)))), (surjective_pairing (promote (cty_of (pv_ty c)))); apply uac_okw; auto|].
    intros ms va vc Hsa Hsc.
    destruct (A5 ms va Hsa) as [va1 [Sa1 Ca1]]. destruct (C5 ms vc Hsc) as [vc1 [Sc1 Cc1]].
    destruct (H6 ms va1 vc1 Sa1 Sc1) as [va' [vc' [Sa' [Sc' [Ca' Cc']]]]].
    destruct (sem_int _ _ _ _ _ H4 Sa') as [x [-> _]]. destruct (sem_int _ _ _ _ _ H5 Sc') as [y [-> _]].
    exists x, y. split; [exact Sa'|]. split; [exact Sc'|].
    pose proof (wfc_cval_of a va Hga (proj2 Hsa)) as Wa. pose proof (wfc_cval_of c vc Hgc (proj2 Hsc)) as Wc.
    pose proof (fst_cval_of _ _ (proj2 Hsa)) as Fa. pose proof (fst_cval_of _ _ (proj2 Hsc)) as Fc.
    split; [rewrite Fa, Fc; reflexivity|].
    rewrite (cval_of_t a' T x H4), Ca1, <- Fa, conv_conv_promote in Ca' by exact Wa.
    rewrite (cval_of_t c' T y H5), Cc1, <- Fc, conv_conv_promote in Cc' by exact Wc. auto.
  Qed.

  Lemma int_of_bool_ok p st : goodpv p ->
    exists p' sg w, int_of_bool cfg p st = OK (p', st) /\ goodpv p' /\ ity (pv_ty p') sg w /\ okw w /\
      forall ms v, sem ms p v -> exists v', sem ms p' v' /\ cval_of (pv_ty p') v' = cval_of (pv_ty p) v.
  Proof.
    intros Hg. unfold int_of_bool. cbn [fx cfg_fx fx_bool_int all_fixes andb].
    pose proof Hg as [[Ht Hk] | [sg0 [w0 [Hw0 [Ht Hk]]]]].
    - rewrite Ht. cbn [vt_bool ty_bool].
      destruct (init_a_cast_ok true 32 p st okw32 Hg) as [p' [H1 [H2 [H3 [_ H5]]]]].
      exists p', true, 32%N. repeat (split; [auto|]).
      intros ms v Hs. destruct (H5 ms v Hs) as [v' [S' C']]. exists v'. split; [auto|]. rewrite C'.
      pose proof (wfc_cval_of p v Hg (proj2 Hs)) as W. assert (F : fst (cval_of (pv_ty p) v) = (true, 32%N)) by (rewrite (fst_cval_of _ _ (proj2 Hs)), Ht; reflexivity).
      rewrite <- Ht. rewrite <- F. apply conv_same. auto.
    - rewrite Ht. cbn [vt_bool ty_h]. rewrite <- Ht.
      exists p, sg0, w0. split; [reflexivity|]. repeat (split; [auto|]). intros ms v Hs. exists v. auto.
  Qed.

  Lemma bind_OK {A B} (m : M A) (f : A -> M B) st a st' : m st = OK (a, st') -> bind m f st = f a st'.
  Proof. intros H. unfold bind. rewrite H. reflexivity. Qed.

  Definition islit (p : pval) : Prop := match pv_kind p with KLit _ _ => True | _ => False end.

  (* the address of mem_load / mem_store: converted to the 32-bit address type (D20 repaired) *)
  Lemma addr_ok p st : goodpv p ->
    exists p', addr_of cfg p st = OK (p', st) /\ pv_tmps p' = [] /\
      forall ms v, sem ms p v ->
        exists w1 z, eval rw ms [] (fin (pv_term p')) = Some (VBv w1 z) /\
                     snd (conv (false, 32%N) (cval_of (pv_ty p) v)) = z.
  Proof.
    intros Hg.
    destruct (int_of_bool_ok p st Hg) as [p1 [s1 [w1 [I1 [G1 [T1 [W1 I5]]]]]]].
    destruct (ity_inv _ _ _ T1) as [h1 E1].
    (* an operand that is 32 bits wide already is used as it is, whatever its signedness *)
    assert (Hsame : w1 = 32%N -> forall ms v, sem ms p v ->
              exists w z, eval rw ms [] (fin (pv_term p1)) = Some (VBv w z) /\ snd (conv (false, 32%N) (cval_of (pv_ty p) v)) = z).
    { intros -> ms v Hs. destruct (I5 ms v Hs) as [v1 [S1 C1]].
      destruct (sem_int ms p1 v1 s1 32 T1 S1) as [z [-> [Hz He]]].
      exists 32%N, z. split; [exact He|]. rewrite <- C1, (cval_of_ity _ s1 32 z T1).
      unfold conv, mkval, vint. cbn [fst snd]. rewrite wrap_interp. apply wrap_small. exact Hz. }
    unfold addr_of. unfold bind at 1. rewrite I1. cbn [fx cfg_fx fx_addr all_fixes].
    unfold bind, ty_eq, ret. rewrite E1. cbn [is_numeric ty_int ty_h vt_void vt_ext negb andb vt_w vt_tok].
    destruct (vtype_eqb (ty_h h1 s1 w1) (ty_int false 32)) eqn:Eeq; [|destruct (w1 =? 32)%N eqn:Ew].
    - apply (vtype_eqb_h h1 s1 w1 false false 32) in Eeq.
      exists p1. split; [reflexivity|]. split; [exact (goodpv_tmps p1 G1) | exact (Hsame (proj2 Eeq))].
    - apply N.eqb_eq in Ew. cbn [andb].
      exists p1. split; [reflexivity|]. split; [exact (goodpv_tmps p1 G1) | exact (Hsame Ew)].
    - cbn [andb].
      destruct (init_a_cast_ok false 32 p1 st okw32 G1) as [p2 [H1 [G2 [H3 [_ H5]]]]].
      rewrite H1. exists p2. split; [reflexivity|]. split; [exact (goodpv_tmps p2 G2)|]. intros ms v Hs. destruct (I5 ms v Hs) as [v1 [S1 C1]].
      destruct (H5 ms v1 S1) as [v2 [S2 C2]].
      destruct (sem_int ms p2 v2 false 32 H3 S2) as [z [-> [Hz He]]].
      exists 32%N, z. split; [exact He|]. rewrite <- C1, <- C2, (cval_of_ity _ false 32 z H3). reflexivity.
  Qed.

  (* a value of a Token-width type (the result type of mem_load) converted to an integer type *)
  Lemma init_a_cast_tok_ok sg w s0 w0 tm k st : okw w -> okw w0 ->
    exists p', init_a_cast cfg (ty_int sg w) (mkpv tm (ty_tok s0 w0) k []) st = OK (p', st) /\
      goodpv p' /\ pv_ty p' = ty_int sg w /\ pv_kind p' = KExec /\
      forall ms z, eval rw ms [] (fin tm) = Some (VBv w0 z) -> 0 <= z < pow2 w0 ->
        exists v', sem ms p' v' /\ cval_of (pv_ty p') v' = conv (sg, w) ((s0, w0), z).
  Proof.
    intros Hw Hw0.
    unfold init_a_cast, bind, ty_eq, ret. cbn [pv_ty pv_kind pv_tmps vt_float ty_int ty_h ty_tok orb is_numeric vt_void vt_ext negb andb].
    assert (vtype_eqb (ty_int sg w) (ty_tok s0 w0) = false) as -> by reflexivity.
    cbn [vt_bool ty_int ty_h ty_tok andb fx cfg_fx fx_cast_fill all_fixes vt_w vt_sg rd pv_term].
    eexists; split; [reflexivity|]. split; [|split; [reflexivity|split; [reflexivity|]]].
    { right. exists sg, w. gp. }
    intros ms z He Hz.
    exists (VBv w (wrap w (interp (s0, w0) z))). split.
    - split; [|cbn [pv_ty]; apply shape_int; apply wrap_range].
      exact (cast_eval (ty_int sg w) (ty_tok s0 w0) _ _ ms z Hw0 He Hz).
    - cbn [pv_ty cval_of ty_int ty_h vt_sg]. reflexivity.
  Qed.

  (* one argument of a macro / sub-routine call converted to the parameter type: a step of Lower.lower_args *)
  Lemma lower_args_cons p it sg w ptt rest tm st : okw w -> goodpv p ->
    lower_args cfg it ptt st = OK ((rest, tm), st) ->
    exists p', lower_args cfg (IPure p :: it) (ty_int sg w :: ptt) st = OK ((APure (rd p') :: rest, pv_tmps p' ++ tm), st) /\
      pv_tmps p' = [] /\ conv_to sg w p p'.
  Proof.
    intros Hw Hg Hrest. cbn [lower_args]. unfold bind at 1. rewrite Hrest. cbn [vt_ext ty_int].
    destruct (conv_back_ok (ty_int sg w) p st sg w Hw (ity_int sg w) Hg) as (p' & C & _ & G & H).
    exists p'. split; [|split; [exact (goodpv_tmps p' G) | exact H]].
    rewrite ty_eq_sym. revert C. unfold bind, ret.
    destruct (ty_eq (ty_int sg w) (pv_ty p) st) as [[[|] s1]|]; try discriminate; intros C;
      [injection C as <- <- | rewrite C]; reflexivity.
  Qed.

  Definition int_ptype (pt : vtype) : Prop := exists sg w, okw w /\ pt = ty_int sg w.
  (* every argument of a call is converted to the type of its parameter (C11 6.5.2.2p7: as if by assignment), whatever the
     argument expression, for every list of arguments and integer parameter types *)
  Theorem lower_args_ok : forall (ps : list pval) (pts : list vtype) st,
    Forall goodpv ps -> Forall int_ptype pts -> List.length ps = List.length pts ->
    exists args, lower_args cfg (map IPure ps) pts st = OK ((args, []), st) /\
      forall ms, forall k p pt v, nth_error ps k = Some p -> nth_error pts k = Some pt -> sem ms p v ->
        exists t v', nth_error args k = Some (APure t) /\ eval rw ms [] (fin t) = Some v' /\ shape pt v' /\
                     cval_of pt v' = conv (vt_sg pt, vt_w pt) (cval_of (pv_ty p) v).
  Proof.
    induction ps as [|p ps IH]; intros pts st Hg Hp Hl.
    - destruct pts; [|discriminate Hl]. exists []. split; [reflexivity|]. intros ms k p pt v Hk. destruct k; discriminate Hk.
    - destruct pts as [|pt pts]; [discriminate Hl|]. injection Hl as Hl.
      inversion Hg as [|? ? Hgp Hgps]; subst. inversion Hp as [|? ? Hpt Hpts]; subst.
      destruct (IH pts st Hgps Hpts Hl) as [rest [Lr Sr]]. destruct Hpt as [sg [w [Hw ->]]].
      destruct (lower_args_cons p _ sg w _ _ _ st Hw Hgp Lr) as [p' [L [T S]]]. rewrite T in L.
      exists (APure (rd p') :: rest). split; [exact L|].
      intros ms k q qt v Hk Hkt Hs. destruct k as [|k]; cbn [nth_error] in *; [|exact (Sr ms k q qt v Hk Hkt Hs)].
      injection Hk as <-. injection Hkt as <-. destruct (S ms v Hs) as [z [Hz [Ez Cz]]].
      exists (rd p'), (VBv w z). split; [reflexivity|]. split; [exact Ez|]. split; [apply shape_int; exact Hz|].
      symmetry. exact Cz.
  Qed.

  Lemma find_mac_std sg : In sg std_macs -> find_mac cfg (mac_name sg) = Some sg.
  Proof. intros H. unfold find_mac. cbn [cfg_macros]. exact (Hmacs sg H). Qed.

  Lemma lit_match2 {A} (ka kc : kind) (X : Z -> bool -> Z -> bool -> A) (Y : A) :
    ~ ((match ka with KLit _ _ => True | _ => False end) /\ (match kc with KLit _ _ => True | _ => False end)) ->
    match ka, kc with KLit va ba, KLit vb bb => X va ba vb bb | _, _ => Y end = Y.
  Proof. destruct ka, kc; cbn; intros; try reflexivity. tauto. Qed.

  Definition bin_pv (o : RzIL.binop) (a c : pval) : pval :=
    mkpv (PBin o (rd a) (rd c)) (pv_ty a) KExec (pv_tmps a ++ pv_tmps c).
  Lemma bin_pv_good o a c sg w : goodpv a -> goodpv c -> okw w -> ity (pv_ty a) sg w ->
    goodpv (bin_pv o a c) /\ ~ islit (bin_pv o a c).
  Proof.
    intros Ga Gc Hw Ta. split; [|unfold islit; cbn; auto].
    apply (goodpv_i _ sg w); cbn [bin_pv pv_ty pv_kind pv_tmps]; auto using goodpv_tmps2. exact I.
  Qed.
  Lemma bin_pv_sem o a c (t : cty) ms x w' y z : ity (pv_ty a) (fst t) (snd t) ->
    sem ms a (VBv (snd t) x) -> sem ms c (VBv w' y) -> is_shift o || N.eqb (snd t) w' = true ->
    bin_sem o (snd t) x y = Some z -> 0 <= z < pow2 (snd t) ->
    sem ms (bin_pv o a c) (VBv (snd t) z) /\ cval_of (pv_ty (bin_pv o a c)) (VBv (snd t) z) = (t, z).
  Proof.
    intros Ta [Ea _] [Ec _] Ho Hz Rz. split; [|exact (cval_of_t a t z Ta)].
    split; [|cbn [bin_pv pv_ty]; apply (shape_ity _ (fst t)); auto].
    cbn [bin_pv pv_term fin_pure eval]. unfold rd. rewrite Ea, Ec, Ho, Hz. reflexivity.
  Qed.

  Lemma c_arith_conv f ca cc t x y : arith_ty (fst ca) (fst cc) = t -> conv t ca = (t, x) -> conv t cc = (t, y) ->
    c_arith f ca cc = (t, wrap (snd t) (f (interp t x) (interp t y))).
  Proof. intros Ht Ha Hc. unfold c_arith. rewrite Ht, Ha, Hc. reflexivity. Qed.
  Lemma c_bitop_conv f ca cc t x y : arith_ty (fst ca) (fst cc) = t -> conv t ca = (t, x) -> conv t cc = (t, y) ->
    c_bitop f ca cc = (t, wrap (snd t) (f x y)).
  Proof. intros Ht Ha Hc. unfold c_bitop. rewrite Ht, Ha, Hc. reflexivity. Qed.
  Lemma c_cmp_conv f ca cc t x y : arith_ty (fst ca) (fst cc) = t -> conv t ca = (t, x) -> conv t cc = (t, y) ->
    c_cmp f ca cc = (int_t, if f (interp t x) (interp t y) then 1 else 0).
  Proof.
    intros Ht Ha Hc. unfold c_cmp. rewrite Ht, Ha, Hc. unfold mkval, vint. cbn [fst snd].
    destruct (f (interp t x) (interp t y)); reflexivity.
  Qed.

  Definition arith_fun (b : Ast.binop) : Z -> Z -> Z :=
    match b with Ast.BAdd => Z.add | Ast.BSub => Z.sub | _ => Z.mul end.

  Lemma lower_arith_ok b a c st : (b = Ast.BAdd \/ b = Ast.BSub \/ b = Ast.BMul) -> goodpv a -> goodpv c ->
    ~ (islit a /\ islit c) ->
    exists r, lower_binop cfg b (IPure a) (IPure c) st = OK (IPure r, st) /\ goodpv r /\ ~ islit r /\
      forall ms va vc, sem ms a va -> sem ms c vc ->
        exists vr, sem ms r vr /\
          c_binop b (cval_of (pv_ty a) va) (cval_of (pv_ty c) vc) = Some (cval_of (pv_ty r) vr).
  Proof.
    intros Hb Hga Hgc Hnl.
    destruct (prep_ok a c st Hga Hgc) as [a' [c' [H1 [Ga' [Gc' [Ta' [Tc' [Hw H2]]]]]]]].
    destruct (ity_inv _ _ _ Ta') as [ha' Ea'].
    set (t := arith_ty (cty_of (pv_ty a)) (cty_of (pv_ty c))) in *.
    set (o := match b with Ast.BAdd => RzIL.BAdd | Ast.BSub => RzIL.BSub | _ => RzIL.BMul end).
    destruct (bin_pv_good o a' c' _ _ Ga' Gc' Hw Ta') as [Gr Nr].
    exists (bin_pv o a' c'). split.
    { unfold bin_pv, o. destruct Hb as [-> | [-> | ->]]; cbn [lower_binop];
      (erewrite bind_OK by reflexivity); (erewrite bind_OK by reflexivity);
      (rewrite lit_match2 by exact Hnl); cbn [arith_of];
      (erewrite bind_OK by exact H1); cbn beta iota; unfold ret, arith_il_exec;
      rewrite Ea'; cbn [vt_float ty_int ty_h andb vt_sg];
      destruct (fx cfg).(fx_divmod); destruct (fst t); reflexivity. }
    split; [exact Gr|]. split; [exact Nr|].
    intros ms va vc Sa Sc. destruct (H2 ms va vc Sa Sc) as [x [y [Sa' [Sc' [Et [Ca Cc]]]]]].
    destruct (bin_pv_sem o a' c' t ms x (snd t) y (wrap (snd t) (arith_fun b x y)) Ta' Sa' Sc') as [Sr Cr].
    { rewrite N.eqb_refl. apply orb_true_r. }
    { destruct Hb as [-> | [-> | ->]]; reflexivity. }
    { apply wrap_range. }
    eexists. split; [exact Sr|]. rewrite Cr.
    destruct Hb as [-> | [-> | ->]]; cbn [c_binop arith_fun]; rewrite (c_arith_conv _ _ _ t x y Et Ca Cc); do 2 f_equal; destruct t.
    + apply arith_interp_add. + apply arith_interp_sub. + apply arith_interp_mul.
  Qed.

  Lemma prep_seq {B} a c st a' c' (k : pval * pval -> M B) :
    (do pa <- promotion_cast cfg a; do pc <- promotion_cast cfg c; cast_operands cfg false pa pc) st = OK ((a', c'), st) ->
    (do pa <- promotion_cast cfg a; do pc <- promotion_cast cfg c; do r <- cast_operands cfg false pa pc; k r) st = k (a', c') st.
  Proof.
    unfold bind. intros H.
    destruct (promotion_cast cfg a st) as [[pa s1]|]; [|discriminate].
    destruct (promotion_cast cfg c s1) as [[pc s2]|]; [|discriminate].
    rewrite H. reflexivity.
  Qed.

  Definition bit_fun (b : Ast.binop) : Z -> Z -> Z :=
    match b with Ast.BAnd => Z.land | Ast.BOr => Z.lor | _ => Z.lxor end.

  Lemma bit_fun_range b w x y : okw w -> 0 <= x < pow2 w -> 0 <= y < pow2 w -> 0 <= bit_fun b x y < pow2 w.
  Proof. intros. destruct b; cbn [bit_fun]; auto using land_range, lor_range, lxor_range. Qed.

  Lemma lower_bit_ok b a c st : (b = Ast.BAnd \/ b = Ast.BOr \/ b = Ast.BXor) -> goodpv a -> goodpv c ->
    exists r, lower_binop cfg b (IPure a) (IPure c) st = OK (IPure r, st) /\ goodpv r /\ ~ islit r /\
      forall ms va vc, sem ms a va -> sem ms c vc ->
        exists vr, sem ms r vr /\
          c_binop b (cval_of (pv_ty a) va) (cval_of (pv_ty c) vc) = Some (cval_of (pv_ty r) vr).
  Proof.
    intros Hb Hga Hgc.
    destruct (prep_ok a c st Hga Hgc) as [a' [c' [H1 [Ga' [Gc' [Ta' [Tc' [Hw H2]]]]]]]].
    set (t := arith_ty (cty_of (pv_ty a)) (cty_of (pv_ty c))) in *.
    set (o := match b with Ast.BAnd => BLogAnd | Ast.BOr => BLogOr | _ => BLogXor end).
    destruct (bin_pv_good o a' c' _ _ Ga' Gc' Hw Ta') as [Gr Nr].
    exists (bin_pv o a' c'). split.
    { unfold bin_pv, o. destruct Hb as [-> | [-> | ->]]; cbn [lower_binop];
      (erewrite bind_OK by reflexivity); (erewrite bind_OK by reflexivity);
      (erewrite prep_seq by exact H1); reflexivity. }
    split; [exact Gr|]. split; [exact Nr|].
    intros ms va vc Sa Sc. destruct (H2 ms va vc Sa Sc) as [x [y [Sa' [Sc' [Et [Ca Cc]]]]]].
    destruct (sem_int _ _ _ _ _ Ta' Sa') as [x0 [Ex [Hx _]]]. injection Ex as <-.
    destruct (sem_int _ _ _ _ _ Tc' Sc') as [y0 [Ey [Hy _]]]. injection Ey as <-.
    pose proof (bit_fun_range b (snd t) x y Hw Hx Hy) as Hr.
    destruct (bin_pv_sem o a' c' t ms x (snd t) y (bit_fun b x y) Ta' Sa' Sc') as [Sr Cr].
    { rewrite N.eqb_refl. apply orb_true_r. }
    { destruct Hb as [-> | [-> | ->]]; reflexivity. }
    { exact Hr. }
    eexists. split; [exact Sr|]. rewrite Cr.
    destruct Hb as [-> | [-> | ->]]; cbn [c_binop bit_fun] in *; rewrite (c_bitop_conv _ _ _ t x y Et Ca Cc); do 2 f_equal;
    apply wrap_small; exact Hr.
  Qed.

  Definition cmp_fun (b : Ast.binop) : Z -> Z -> bool :=
    match b with
    | Ast.BLt => Z.ltb | Ast.BGt => Z.gtb | Ast.BLe => Z.leb | Ast.BGe => Z.geb | Ast.BEq => Z.eqb
    | _ => fun a b => negb (Z.eqb a b) end.
  Definition is_cmp (b : Ast.binop) : Prop :=
    b = Ast.BLt \/ b = Ast.BGt \/ b = Ast.BLe \/ b = Ast.BGe \/ b = Ast.BEq \/ b = Ast.BNe.

  Lemma interp_eqb sg w x y : 0 <= x < pow2 w -> 0 <= y < pow2 w ->
    (interp (sg, w) x =? interp (sg, w) y) = (x =? y).
  Proof.
    intros Hx Hy. destruct (Z.eqb_spec x y) as [->|Hn]; [apply Z.eqb_refl|].
    apply Z.eqb_neq. intros H. exact (Hn (interp_inj sg w x y Hx Hy H)).
  Qed.

  Lemma lower_cmp_ok b a c st : is_cmp b -> goodpv a -> goodpv c -> ~ (islit a /\ islit c) ->
    exists r, lower_binop cfg b (IPure a) (IPure c) st = OK (IPure r, st) /\ goodpv r /\ ~ islit r /\
      forall ms va vc, sem ms a va -> sem ms c vc ->
        exists vr, sem ms r vr /\
          c_binop b (cval_of (pv_ty a) va) (cval_of (pv_ty c) vc) = Some (cval_of (pv_ty r) vr).
  Proof.
    intros Hb Hga Hgc Hnl.
    destruct (prep_ok a c st Hga Hgc) as [a' [c' [H1 [Ga' [Gc' [Ta' [Tc' [Hw H2]]]]]]]].
    destruct (ity_inv _ _ _ Ta') as [ha' Ea']. destruct (ity_inv _ _ _ Tc') as [hc' Ec'].
    set (t := arith_ty (cty_of (pv_ty a)) (cty_of (pv_ty c))) in *.
    exists (mkpv (cmp_il_exec (match b with Ast.BLt => "<" | Ast.BGt => ">" | Ast.BLe => "<=" | Ast.BGe => ">=" | Ast.BEq => "==" | _ => "!=" end)
                              (pv_ty a') (pv_ty c') (rd a') (rd c')) ty_bool KBoolOp (pv_tmps a' ++ pv_tmps c')).
    split.
    { destruct Hb as [-> | [-> | [-> | [-> | [-> | ->]]]]]; cbn [lower_binop];
      (erewrite bind_OK by reflexivity); (erewrite bind_OK by reflexivity);
      (rewrite lit_match2 by exact Hnl); cbn [fx cfg_fx fx_cmp_promote all_fixes];
      (erewrite bind_OK by exact H1); cbn beta iota;
      unfold need_numeric; rewrite Ea', Ec'; cbn [is_numeric ty_int ty_h vt_void vt_ext negb andb];
      (erewrite bind_OK by reflexivity); (erewrite bind_OK by reflexivity); reflexivity. }
    split. { left. gp. }
    split. { cbn. auto. }
    intros ms va vc Sa Sc.
    destruct (H2 ms va vc Sa Sc) as [x [y [Sa' [Sc' [Et0 [Ca Cc]]]]]].
    destruct (sem_int _ _ _ _ _ Ta' Sa') as [x0 [Ex0 [Hx Ex]]]. injection Ex0 as <-.
    destruct (sem_int _ _ _ _ _ Tc' Sc') as [y0 [Ey0 [Hy Ey]]]. injection Ey0 as <-.
    exists (VB (cmp_fun b (interp t x) (interp t y))). split.
    - split; [|apply shape_bool].
      cbn [pv_term]. rewrite Ea', Ec'. unfold cmp_il_exec. cbn [vt_sg ty_int ty_h vt_float andb]. unfold rd.
      destruct t as [sg w] eqn:Et. cbn [fst snd] in *.
      assert (Hu : forall z, 0 <= z < pow2 w -> interp (false, w) z = z) by (intros; apply interp_unsigned; auto).
      destruct Hb as [-> | [-> | [-> | [-> | [-> | ->]]]]]; cbn [String.eqb Ascii.eqb Bool.eqb cmp_fun];
      destruct sg; cbn [orb fin_pure eval]; rewrite Ex, Ey, N.eqb_refl; cbn [cmp_sem interp fst snd negb];
      rewrite ?Z.gtb_ltb, ?Z.geb_leb; try reflexivity;
      try (change (sval w x) with (interp (true, w) x); change (sval w y) with (interp (true, w) y); rewrite interp_eqb by auto; reflexivity);
      try (change (wrap w x) with (interp (false, w) x); change (wrap w y) with (interp (false, w) y); rewrite !Hu by auto; reflexivity).
    - destruct Hb as [-> | [-> | [-> | [-> | [-> | ->]]]]]; cbn [c_binop cmp_fun]; rewrite (c_cmp_conv _ _ _ t x y Et0 Ca Cc); reflexivity.
  Qed.

  (* the IL operator: a right shift is arithmetic when the (promoted) left operand is signed *)
  Definition shift_op (left sg : bool) : RzIL.binop := if left then BShl0 else if sg then BShra else BShr0.

  Definition shift_pv (left sg : bool) : pval -> pval -> pval := bin_pv (shift_op left sg).

  Lemma shift_sem left t x y : 0 <= x < pow2 (snd t) -> 0 <= y ->
    exists res, bin_sem (shift_op left (fst t)) (snd t) x y = Some res /\ 0 <= res < pow2 (snd t) /\
      (0 <= y < Z.of_N (snd t) -> res = wrap (snd t) (if left then interp t x * 2 ^ y else interp t x / 2 ^ y)).
  Proof.
    intros Hx Hy. destruct t as [sg w]. cbn [fst snd] in *. pose proof (pow2_pos w).
    destruct left; [|destruct sg]; cbn [shift_op bin_sem]; eexists; (split; [reflexivity|]); split.
    - unfold shl0. destruct (y <? Z.of_N w); [apply wrap_range | lia].
    - intros Hn. apply shl_ok; auto.
    - unfold shra. destruct (y <? Z.of_N w); [apply wrap_range|]. destruct (msb w x); lia.
    - intros Hn. apply shra_ok; auto.
    - unfold shr0. destruct (y <? Z.of_N w); [|lia].
      rewrite wrap_small by auto. assert (0 < 2 ^ y) by (apply Z.pow_pos_nonneg; lia).
      split; [apply Z.div_pos; lia|]. apply Z.div_lt_upper_bound; nia.
    - intros Hn. apply shr_ok; auto.
  Qed.

  (* a' of an integer type t shifted by c', an integer of any type holding the count n: binary << >> and compound <<= >>=
     differ only in how they bring their operands to this form (the count of a compound shift is promoted) *)
  Lemma shift_pv_ok left a' c' t tc : goodpv a' -> goodpv c' -> okw (snd t) -> okw (snd tc) ->
    ity (pv_ty a') (fst t) (snd t) -> ity (pv_ty c') (fst tc) (snd tc) ->
    goodpv (shift_pv left (fst t) a' c') /\
    forall ms va vc, sem ms a' va -> sem ms c' vc ->
      exists vr, sem ms (shift_pv left (fst t) a' c') vr /\
        ((0 <=? vint (cval_of (pv_ty c') vc)) && (vint (cval_of (pv_ty c') vc) <? Z.of_N (snd t)) = true ->
         cval_of (pv_ty a') vr =
         mkval t (if left then vint (cval_of (pv_ty a') va) * 2 ^ vint (cval_of (pv_ty c') vc)
                  else vint (cval_of (pv_ty a') va) / 2 ^ vint (cval_of (pv_ty c') vc))).
  Proof.
    intros Ga Gc Hw Hwc Ta Tc. split; [exact (proj1 (bin_pv_good _ a' c' _ _ Ga Gc Hw Ta))|].
    intros ms va vc Sa Sc.
    destruct (sem_int _ _ _ _ _ Ta Sa) as [x [-> [Hx _]]]. destruct (sem_int _ _ _ _ _ Tc Sc) as [y [-> [Hy _]]].
    destruct (shift_sem left t x y Hx (proj1 Hy)) as [res [Hres [Hrange Hval]]].
    destruct (bin_pv_sem (shift_op left (fst t)) a' c' t ms x _ y res Ta Sa Sc) as [Sr Cr]; [|exact Hres | exact Hrange|].
    { destruct left; [|destruct (fst t)]; reflexivity. }
    exists (VBv (snd t) res). split; [exact Sr|].
    rewrite (cval_of_t a' t res Ta), (cval_of_t a' t x Ta), (cval_of_ity _ _ _ _ Tc). unfold vint; cbn [fst snd]. intros Hn.
    rewrite (interp_nonneg (fst tc) (snd tc) y Hwc Hy) in * by lia. unfold mkval. rewrite Hval by lia. reflexivity.
  Qed.

  Lemma lower_shift_ok b a c st : (b = Ast.BShl \/ b = Ast.BShr) -> goodpv a -> goodpv c ->
    exists r, lower_binop cfg b (IPure a) (IPure c) st = OK (IPure r, st) /\ goodpv r /\ ~ islit r /\
      forall ms va vc, sem ms a va -> sem ms c vc ->
        exists vr, sem ms r vr /\
          forall cv, c_binop b (cval_of (pv_ty a) va) (cval_of (pv_ty c) vc) = Some cv -> cv = cval_of (pv_ty r) vr.
  Proof.
    intros Hb Hga Hgc.
    destruct (int_of_bool_ok c st Hgc) as [c' [sc [wc [C1 [C2 [C3 [C4 C5]]]]]]].
    destruct (promotion_cast_ok a st Hga) as [a' [A1 [A2 [A3 [A4 [_ A5]]]]]].
    destruct (ity_inv _ _ _ A3) as [ha3 EA3].
    set (t := promote (cty_of (pv_ty a))) in *. set (left := match b with Ast.BShl => true | _ => false end).
    destruct (shift_pv_ok left a' c' t (sc, wc) A2 C2 A4 C4 A3 C3) as [Gr Hr].
    exists (shift_pv left (fst t) a' c'). split.
    { unfold shift_pv, bin_pv, left. destruct Hb as [-> | ->]; cbn [lower_binop shift_op];
      (erewrite bind_OK by reflexivity); (erewrite bind_OK by reflexivity);
      (erewrite bind_OK by exact C1); cbn [fx cfg_fx fx_shift_promote all_fixes];
      (erewrite bind_OK by exact A1);
      unfold need_numeric; rewrite EA3; cbn [is_numeric ty_int ty_h vt_void vt_ext negb andb];
      (erewrite bind_OK by reflexivity); [reflexivity|].
      unfold bitop_il_exec. cbn [String.eqb Ascii.eqb Bool.eqb vt_sg ty_int ty_h]. destruct (fst t); reflexivity. }
    split; [exact Gr|]. split; [cbn; auto|].
    intros ms va vc Sa Sc.
    destruct (A5 ms va Sa) as [va' [Sa' Ca']]. destruct (C5 ms vc Sc) as [vc' [Sc' Cc']].
    destruct (Hr ms va' vc' Sa' Sc') as [vr [Sr Cr]]. exists vr. split; [exact Sr|].
    intros cv Hcv. cbn [pv_ty].
    assert (Hcs : c_shift left (cval_of (pv_ty a) va) (cval_of (pv_ty c) vc) = Some cv) by (destruct Hb as [-> | ->]; exact Hcv).
    unfold c_shift in Hcs. rewrite vint_conv_promote in Hcs by (apply wfc_cval_of; [exact Hgc | apply Sc]).
    rewrite (fst_cval_of _ _ (proj2 Sa)) in Hcs. fold t in Hcs. rewrite <- Ca', <- Cc' in Hcs.
    destruct (_ && _) eqn:Erange in Hcs; [|discriminate]. injection Hcs as <-. symmetry. exact (Cr Erange).
  Qed.

  (* x <<= e;  x >>= e : Lower.compound_src promotes both operands (the count of a compound shift is promoted, unlike
     that of a binary shift) *)
  Lemma shift_compound_ok (a : asgop) d c st : (a = AShl \/ a = AShr) -> goodpv d -> goodpv c ->
    exists r, compound_src cfg a d c st = OK (r, st) /\ goodpv r /\
      forall ms vd vc, sem ms d vd -> sem ms c vc ->
        exists vr, sem ms r vr /\
          forall cv, c_shift (match a with AShl => true | _ => false end) (cval_of (pv_ty d) vd) (cval_of (pv_ty c) vc) = Some cv ->
                     cv = cval_of (pv_ty r) vr.
  Proof.
    intros Hb Hgd Hgc.
    destruct (promotion_cast_ok d st Hgd) as [a' [A1 [A2 [A3 [A4 [_ A5]]]]]].
    destruct (promotion_cast_ok c st Hgc) as [c' [C1 [C2 [C3 [C4 [_ C5]]]]]].
    destruct (ity_inv _ _ _ A3) as [ha3 EA3].
    set (t := promote (cty_of (pv_ty d))) in *. set (tc := promote (cty_of (pv_ty c))) in *.
    set (left := match a with AShl => true | _ => false end).
    destruct (shift_pv_ok left a' c' t tc A2 C2 A4 C4 A3 C3) as [Gr Hr].
    exists (shift_pv left (fst t) a' c'). split.
    { unfold shift_pv, bin_pv, left. destruct Hb as [-> | ->]; cbn [compound_src shift_op]; unfold bind; rewrite A1, C1; unfold ret;
      unfold bitop_il_exec; rewrite EA3; cbn [String.eqb Ascii.eqb Bool.eqb vt_sg ty_int ty_h]; [reflexivity|].
      destruct (fst t); reflexivity. }
    split; [exact Gr|].
    intros ms va vc Sa Sc.
    destruct (A5 ms va Sa) as [va' [Sa' Ca']]. destruct (C5 ms vc Sc) as [vc' [Sc' Cc']].
    destruct (Hr ms va' vc' Sa' Sc') as [vr [Sr Cr]]. exists vr. split; [exact Sr|].
    intros cv Hcs. cbn [pv_ty]. unfold c_shift in Hcs.
    rewrite (fst_cval_of _ _ (proj2 Sa)), (fst_cval_of _ _ (proj2 Sc)) in Hcs. fold t tc in Hcs. rewrite <- Ca', <- Cc' in Hcs.
    destruct (_ && _) eqn:Erange in Hcs; [|discriminate]. injection Hcs as <-. symmetry. exact (Cr Erange).
  Qed.

  (* a C value as a condition *)
  Definition truth (c : cval) : bool := negb (snd c =? 0).

  Lemma is_boolop_good p : goodpv p -> is_boolop cfg p = vt_bool (pv_ty p).
  Proof.
    unfold is_boolop. intros [[Ht [Hk _]] | [sg [w [_ [Ht [Hk _]]]]]]; rewrite Ht.
    - destruct (pv_kind p) as [? [|]| | | | |? [|] | | |]; cbn in Hk; try contradiction; reflexivity.
    - cbn [vt_bool ty_int ty_h]. destruct (pv_kind p) as [? [|]| | | | |? [|] | | |]; cbn in Hk; try contradiction; reflexivity.
  Qed.

  Lemma cond_ok p ms v : goodpv p -> sem ms p v ->
    eval rw ms [] (fin (cond_of cfg p)) = Some (VB (truth (cval_of (pv_ty p) v))).
  Proof.
    intros Hg Hs. unfold cond_of. rewrite is_boolop_good by auto.
    destruct Hg as [[Ht [Hk _]] | [sg [w [_ [Ht [Hk _]]]]]].
    - destruct (sem_bool _ _ _ Ht Hs) as [b [-> He]]. rewrite Ht. cbn [vt_bool ty_bool cond_wrap]. unfold rd. rewrite He.
      destruct b; reflexivity.
    - destruct (sem_int _ _ _ _ _ Ht Hs) as [z [-> [Hz He]]]. rewrite Ht. cbn [vt_bool ty_int ty_h cond_wrap fin_pure eval]. unfold rd. rewrite He.
      reflexivity.
  Qed.

  Lemma lower_logic_ok b a c st : (b = Ast.BLAnd \/ b = Ast.BLOr) -> goodpv a -> goodpv c ->
    exists r, lower_binop cfg b (IPure a) (IPure c) st = OK (IPure r, st) /\ goodpv r /\ ~ islit r /\
      forall ms va vc, sem ms a va -> sem ms c vc ->
        sem ms r (VB (match b with Ast.BLAnd => andb | _ => orb end
                        (truth (cval_of (pv_ty a) va)) (truth (cval_of (pv_ty c) vc)))).
  Proof.
    intros Hb Hga Hgc.
    exists (mkpv (boolop_il_exec (match b with Ast.BLAnd => "&&" | _ => "||" end) (is_boolop cfg a) (is_boolop cfg c) (rd a) (rd c))
                 ty_bool KBoolOp (pv_tmps a ++ pv_tmps c)).
    split.
    { destruct Hb as [-> | ->]; cbn [lower_binop];
      (erewrite bind_OK by reflexivity); (erewrite bind_OK by reflexivity);
      cbn [fx cfg_fx fx_bool_int all_fixes]; (erewrite bind_OK by reflexivity); reflexivity. }
    split. { left. gp. }
    split. { cbn. auto. }
    intros ms va vc Sa Sc. split; [|apply shape_bool].
    pose proof (cond_ok a ms va Hga Sa) as Ea. pose proof (cond_ok c ms vc Hgc Sc) as Ec. unfold cond_of in Ea, Ec.
    cbn [pv_term]. unfold boolop_il_exec.
    destruct Hb as [-> | ->]; cbn [String.eqb Ascii.eqb Bool.eqb fin_pure eval]; rewrite Ea, Ec; reflexivity.
  Qed.

  Lemma simplify_unary_nolit u p : ~ islit p -> simplify_unary cfg u p = None.
  Proof. unfold simplify_unary, islit. destruct (pv_kind p); destruct u; intros H; try reflexivity; exfalso; apply H; exact I. Qed.
  Lemma simplify_unary_lnot p : simplify_unary cfg ULNot p = None.
  Proof. unfold simplify_unary. destruct (pv_kind p); reflexivity. Qed.

  Lemma lower_unop_ok u a st : (u = UNot \/ u = UMinus) -> goodpv a -> ~ islit a ->
    exists r, lower_unop cfg u (IPure a) st = OK (IPure r, st) /\ goodpv r /\ ~ islit r /\
      forall ms va, sem ms a va ->
        exists vr, sem ms r vr /\ c_unop u (cval_of (pv_ty a) va) = Some (cval_of (pv_ty r) vr).
  Proof.
    intros Hu Hga Hnl.
    destruct (promotion_cast_ok a st Hga) as [a' [A1 [A2 [A3 [A4 [_ A5]]]]]].
    destruct (ity_inv _ _ _ A3) as [ha3 EA3].
    set (t := promote (cty_of (pv_ty a))) in *.
    exists (mkpv (PUn (match u with UNot => ULogNot | _ => UNeg end) (rd a')) (pv_ty a') KExec (pv_tmps a')).
    split.
    { destruct Hu as [-> | ->]; cbn [lower_unop]; (erewrite bind_OK by reflexivity);
      rewrite simplify_unary_nolit by exact Hnl; (erewrite bind_OK by exact A1); reflexivity. }
    split. { right. exists (fst t), (snd t). gp. }
    split. { cbn. auto. }
    intros ms va Sa. destruct (A5 ms va Sa) as [va' [Sa' Ca']].
    destruct (sem_int _ _ _ _ _ A3 Sa') as [x [-> [Hx Ex]]].
    exists (VBv (snd t) (match u with UNot => wrap (snd t) (- x - 1) | _ => wrap (snd t) (- x) end)). split.
    - split.
      + cbn [pv_term fin_pure eval]. unfold rd. rewrite Ex. destruct Hu as [-> | ->]; reflexivity.
      + cbn [pv_ty]. rewrite EA3. apply shape_h. destruct u; apply wrap_range.
    - cbn [pv_ty]. rewrite EA3 in *. cbn [cval_of vt_sg ty_int ty_h] in *.
      assert (Hfa : fst (cval_of (pv_ty a) va) = cty_of (pv_ty a)) by (apply fst_cval_of; apply Sa).
      destruct Hu as [-> | ->]; cbn [c_unop]; rewrite Hfa; fold t; rewrite <- Ca'; unfold mkval, vint; cbn [fst snd];
      change (interp (fst t, snd t)) with (interp t); destruct t as [sg w]; cbn [fst snd]; do 2 f_equal.
      + apply arith_interp_not. + apply arith_interp_neg.
  Qed.

  Lemma lower_lnot_ok a st : goodpv a ->
    exists r, lower_unop cfg ULNot (IPure a) st = OK (IPure r, st) /\ goodpv r /\ ~ islit r /\
      forall ms va, sem ms a va ->
        exists vr, sem ms r vr /\ c_unop ULNot (cval_of (pv_ty a) va) = Some (cval_of (pv_ty r) vr).
  Proof.
    intros Hga.
    exists (mkpv (boolop_il_exec "!" (is_boolop cfg a) false (rd a) (rd a)) ty_bool KBoolOp (pv_tmps a)).
    split.
    { cbn [lower_unop]. (erewrite bind_OK by reflexivity). rewrite simplify_unary_lnot. reflexivity. }
    split. { left. gp. }
    split. { cbn. auto. }
    intros ms va Sa. exists (VB (negb (truth (cval_of (pv_ty a) va)))). split.
    - split; [|apply shape_bool]. pose proof (cond_ok a ms va Hga Sa) as Ea. unfold cond_of in Ea.
      cbn [pv_term]. unfold boolop_il_exec. cbn [String.eqb Ascii.eqb Bool.eqb fin_pure eval]. rewrite Ea. reflexivity.
    - cbn [c_unop pv_ty cval_of]. unfold truth. destruct (snd (cval_of (pv_ty a) va) =? 0); reflexivity.
  Qed.

  (* literal operands are folded by the compiler; a literal pval carries its Python value *)
  Definition litinv (p : pval) : Prop := forall v b, pv_kind p = KLit v b ->
    (b = false /\ exists sg w, (w = 32%N \/ w = 64%N) /\ pv_ty p = ty_int sg w /\ pv_term p = PBv sg w v /\
                               norm_lit (ty_int sg w) v = v) \/
    (b = true /\ pv_ty p = ty_bool /\ exists bb : bool, pv_term p = PBool bb /\ v = if bb then 1 else 0).

  Lemma promoted_or_self_wide sg w : (w = 32%N \/ w = 64%N) -> promoted_or_self (ty_int sg w) = ty_int sg w.
  Proof. intros [-> | ->]; destruct sg; reflexivity. Qed.

  Lemma wrap_norm_lit sg w z : wrap w (norm_lit (ty_int sg w) z) = wrap w z.
  Proof. unfold norm_lit. cbn [vt_sg vt_w ty_int ty_h]. destruct sg; [apply wrap_sval | apply wrap_idem]. Qed.

  Lemma norm_lit_interp sg w z : norm_lit (ty_int sg w) z = interp (sg, w) (wrap w z).
  Proof.
    unfold norm_lit, interp. cbn [vt_sg vt_w ty_int ty_h fst snd]. destruct sg; [|rewrite wrap_idem; reflexivity].
    unfold sval. rewrite wrap_idem. reflexivity.
  Qed.

  Lemma norm_lit_idem sg w z : norm_lit (ty_int sg w) (norm_lit (ty_int sg w) z) = norm_lit (ty_int sg w) z.
  Proof. rewrite (norm_lit_interp sg w (norm_lit _ _)). rewrite wrap_norm_lit. symmetry. apply norm_lit_interp. Qed.

  (* converting a literal's C value: what the folding code computes with norm_lit *)
  Lemma vint_conv_lit T sg w v : norm_lit (ty_int sg w) v = v ->
    vint (conv T ((sg, w), wrap w v)) = norm_lit (ty_int (fst T) (snd T)) v.
  Proof.
    intros Hn. unfold conv, mkval, vint. cbn [fst snd]. rewrite <- norm_lit_interp, Hn.
    rewrite norm_lit_interp. destruct T; reflexivity.
  Qed.

  Lemma lit_sem p v b : litinv p -> pv_kind p = KLit v b ->
    (snd (cty_of (pv_ty p)) = 32%N \/ snd (cty_of (pv_ty p)) = 64%N) /\
    promoted_or_self (pv_ty p) = ty_int (fst (cty_of (pv_ty p))) (snd (cty_of (pv_ty p))) /\
    norm_lit (ty_int (fst (cty_of (pv_ty p))) (snd (cty_of (pv_ty p)))) v = v /\
    forall ms ilv, sem ms p ilv -> cval_of (pv_ty p) ilv = (cty_of (pv_ty p), wrap (snd (cty_of (pv_ty p))) v).
  Proof.
    intros Hli Hk. destruct (Hli v b Hk) as [[_ [sg [w [Hw [Ht [Htm Hn]]]]]] | [_ [Ht [bb [Htm ->]]]]]; rewrite Ht.
    - unfold cty_of. cbn [vt_bool ty_int ty_h vt_sg vt_w fst snd]. split; [exact Hw|]. split; [apply promoted_or_self_wide; auto|].
      split; [exact Hn|]. intros ms ilv [He _]. rewrite Htm in He. cbn [fin_pure eval] in He. injection He as <-. reflexivity.
    - unfold cty_of. cbn [vt_bool ty_bool int_t fst snd]. split; [auto|]. split; [reflexivity|].
      split; [destruct bb; reflexivity|]. intros ms ilv [He _]. rewrite Htm in He. cbn [fin_pure eval] in He. injection He as <-.
      destruct bb; reflexivity.
  Qed.

  Lemma promote_wide t : (snd t = 32%N \/ snd t = 64%N) -> promote t = t.
  Proof. destruct t as [sg w]. cbn [snd]. intros [-> | ->]; reflexivity. Qed.

  Lemma lower_unop_lit_ok u a st v b : (u = UNot \/ u = UMinus) -> litinv a -> pv_kind a = KLit v b ->
    exists r, lower_unop cfg u (IPure a) st = OK (IPure r, st) /\ goodpv r /\ litinv r /\
      forall ms va, sem ms a va ->
        exists vr, sem ms r vr /\ c_unop u (cval_of (pv_ty a) va) = Some (cval_of (pv_ty r) vr).
  Proof.
    intros Hu Hli Hk. destruct (lit_sem a v b Hli Hk) as [Hw [Hpr [Hn Hsem]]].
    destruct (cty_of (pv_ty a)) as [sg w] eqn:Et. cbn [fst snd] in *.
    assert (Hokw : okw w) by (destruct Hw as [-> | ->]; auto).
    set (r' := norm_lit (ty_int sg w) (match u with UNot => - v - 1 | _ => - v end)).
    exists (mkpv (PBv sg w r') (ty_int sg w) (KLit r' false) []).
    split.
    { destruct Hu as [-> | ->]; cbn [lower_unop]; (erewrite bind_OK by reflexivity);
      unfold simplify_unary; rewrite Hk, Hpr; cbn [fx cfg_fx fx_literals all_fixes];
      (erewrite bind_OK by reflexivity); reflexivity. }
    split. { right. exists sg, w. gp. }
    split. { intros v0 b0 Hk0. cbn in Hk0. injection Hk0 as <- <-. left. split; [reflexivity|]. exists sg, w. cbn.
             repeat split; auto. apply norm_lit_idem. }
    intros ms va Sa. rewrite (Hsem ms va Sa).
    exists (VBv w (wrap w r')). split.
    - split; [reflexivity|]. cbn [pv_ty]. apply shape_h. apply wrap_range.
    - cbn [pv_ty cval_of vt_sg ty_int ty_h].
      assert (Hp : promote (sg, w) = (sg, w)) by (apply promote_wide; auto).
      unfold r'. rewrite wrap_norm_lit.
      destruct Hu as [-> | ->]; cbn [c_unop fst snd]; rewrite Hp; rewrite vint_conv_lit by auto; cbn [fst snd]; rewrite Hn; reflexivity.
  Qed.

  Lemma uac_wide ta tc : (snd ta = 32%N \/ snd ta = 64%N) -> (snd tc = 32%N \/ snd tc = 64%N) ->
    (snd (uac ta tc) = 32%N \/ snd (uac ta tc) = 64%N).
  Proof. destruct ta as [sa wa], tc as [sc wc]. cbn [snd]. intros [-> | ->] [-> | ->]; destruct sa, sc; vm_compute; auto. Qed.

  Lemma arith_ty_wide ta tc : (snd ta = 32%N \/ snd ta = 64%N) -> (snd tc = 32%N \/ snd tc = 64%N) -> arith_ty ta tc = uac ta tc.
  Proof. intros Ha Hc. unfold arith_ty. rewrite !promote_wide by auto. reflexivity. Qed.

  Lemma wide_okw w : (w = 32%N \/ w = 64%N) -> okw w.
  Proof. intros [-> | ->]; auto. Qed.

  Lemma lower_arith_lit_ok b a c st va ba vb bb : (b = Ast.BAdd \/ b = Ast.BSub \/ b = Ast.BMul) ->
    litinv a -> litinv c -> pv_kind a = KLit va ba -> pv_kind c = KLit vb bb ->
    exists r, lower_binop cfg b (IPure a) (IPure c) st = OK (IPure r, st) /\ goodpv r /\ litinv r /\
      forall ms ila ilc, sem ms a ila -> sem ms c ilc ->
        exists vr, sem ms r vr /\
          c_binop b (cval_of (pv_ty a) ila) (cval_of (pv_ty c) ilc) = Some (cval_of (pv_ty r) vr).
  Proof.
    intros Hb Hla Hlc Hka Hkc.
    destruct (lit_sem a va ba Hla Hka) as [Hwa [Hpa [Hna Hsa]]]. destruct (lit_sem c vb bb Hlc Hkc) as [Hwc [Hpc [Hnc Hsc]]].
    destruct (cty_of (pv_ty a)) as [sa wa] eqn:Eta. destruct (cty_of (pv_ty c)) as [sc wc] eqn:Etc. cbn [fst snd] in *.
    pose proof (uac_wide (sa, wa) (sc, wc) Hwa Hwc) as HwT. pose proof (arith_ty_wide (sa, wa) (sc, wc) Hwa Hwc) as HaT.
    destruct (uac (sa, wa) (sc, wc)) as [sT wT] eqn:ET. cbn [fst snd] in *.
    set (nm := norm_lit (ty_int sT wT)).
    set (r' := nm (arith_fun b (nm va) (nm vb))).
    exists (mkpv (PBv sT wT r') (ty_int sT wT) (KLit r' false) []).
    split.
    { destruct Hb as [-> | [-> | ->]]; cbn [lower_binop];
      (erewrite bind_OK by reflexivity); (erewrite bind_OK by reflexivity);
      rewrite Hka, Hkc; cbn [fx cfg_fx fx_literals all_fixes]; rewrite Hpa, Hpc;
      rewrite c11_vtypes_plain by (apply wide_okw; auto); rewrite ET; cbn [fst snd];
      (erewrite bind_OK by reflexivity); reflexivity. }
    split. { right. exists sT, wT. gp. apply wide_okw; auto. }
    split. { intros v0 b0 Hk0. cbn in Hk0. injection Hk0 as <- <-. left. split; [reflexivity|]. exists sT, wT. cbn.
             repeat split; auto. apply norm_lit_idem. }
    intros ms ila ilc Sa Sc. rewrite (Hsa ms ila Sa), (Hsc ms ilc Sc).
    exists (VBv wT (wrap wT r')). split.
    - split; [reflexivity|]. cbn [pv_ty]. apply shape_h. apply wrap_range.
    - cbn [pv_ty cval_of vt_sg ty_int ty_h].
      assert (forall f, c_arith f (sa, wa, wrap wa va) (sc, wc, wrap wc vb) = ((sT, wT), wrap wT (f (nm va) (nm vb)))) as Hc.
      { intros f. unfold c_arith. cbn [fst]. rewrite HaT. rewrite !vint_conv_lit by auto. reflexivity. }
      unfold r'. unfold nm at 1. rewrite wrap_norm_lit.
      destruct Hb as [-> | [-> | ->]]; cbn [c_binop arith_fun]; rewrite Hc; reflexivity.
  Qed.

  Lemma lower_cmp_lit_ok b a c st va ba vb bb : is_cmp b ->
    litinv a -> litinv c -> pv_kind a = KLit va ba -> pv_kind c = KLit vb bb ->
    exists r, lower_binop cfg b (IPure a) (IPure c) st = OK (IPure r, st) /\ goodpv r /\ litinv r /\
      forall ms ila ilc, sem ms a ila -> sem ms c ilc ->
        exists vr, sem ms r vr /\
          c_binop b (cval_of (pv_ty a) ila) (cval_of (pv_ty c) ilc) = Some (cval_of (pv_ty r) vr).
  Proof.
    intros Hb Hla Hlc Hka Hkc.
    destruct (lit_sem a va ba Hla Hka) as [Hwa [Hpa [Hna Hsa]]]. destruct (lit_sem c vb bb Hlc Hkc) as [Hwc [Hpc [Hnc Hsc]]].
    destruct (cty_of (pv_ty a)) as [sa wa] eqn:Eta. destruct (cty_of (pv_ty c)) as [sc wc] eqn:Etc. cbn [fst snd] in *.
    pose proof (uac_wide (sa, wa) (sc, wc) Hwa Hwc) as HwT. pose proof (arith_ty_wide (sa, wa) (sc, wc) Hwa Hwc) as HaT.
    destruct (uac (sa, wa) (sc, wc)) as [sT wT] eqn:ET. cbn [fst snd] in *.
    set (nm := norm_lit (ty_int sT wT)).
    exists (bool_lit (cmp_fun b (nm va) (nm vb))).
    split.
    { destruct Hb as [-> | [-> | [-> | [-> | [-> | ->]]]]]; cbn [lower_binop];
      (erewrite bind_OK by reflexivity); (erewrite bind_OK by reflexivity);
      rewrite Hka, Hkc; cbn [fx cfg_fx fx_literals all_fixes]; rewrite Hpa, Hpc;
      rewrite c11_vtypes_plain by (apply wide_okw; auto); rewrite ET; cbn [fst snd];
      (erewrite bind_OK by reflexivity); cbn beta iota; cbn [cmp_fun]; rewrite ?Z.gtb_ltb, ?Z.geb_leb; reflexivity. }
    split. { left. gp. }
    split. { intros v0 b0 Hk0. cbn in Hk0. injection Hk0 as <- <-. right. split; [reflexivity|]. split; [reflexivity|].
             eexists. split; reflexivity. }
    intros ms ila ilc Sa Sc. rewrite (Hsa ms ila Sa), (Hsc ms ilc Sc).
    exists (VB (cmp_fun b (nm va) (nm vb))). split.
    - split; [reflexivity | apply shape_bool].
    - cbn [pv_ty bool_lit cval_of].
      assert (forall f, c_cmp f (sa, wa, wrap wa va) (sc, wc, wrap wc vb) = (int_t, if f (nm va) (nm vb) then 1 else 0)) as Hc.
      { intros f. unfold c_cmp. cbn [fst]. rewrite HaT. rewrite !vint_conv_lit by auto. cbn [fst snd]. fold nm.
        destruct (f (nm va) (nm vb)); reflexivity. }
      destruct Hb as [-> | [-> | [-> | [-> | [-> | ->]]]]]; cbn [c_binop cmp_fun]; rewrite Hc; reflexivity.
  Qed.

  Definition cast_ty (ts : tyspec) (sg : bool) (w : N) : Prop :=
    (ts = [TS_intN sg w] /\ okw w) \/ (ts = [TS_int] /\ sg = true /\ w = 32%N) \/
    (ts = [TS_unsigned] /\ sg = false /\ w = 32%N) \/ (ts = [TS_unsigned; TS_int] /\ sg = false /\ w = 32%N) \/
    (exists b, ts = [TS_sizeN b sg] /\ w = (b * 8)%N /\ okw w).     (* QEMU's sizeNs_t / sizeNu_t *)

  Lemma cast_ty_ok ts sg w st : cast_ty ts sg w ->
    resolve_cast_ty ts st = OK (ty_int sg w, st) /\ resolve_ty_c ts = Some (sg, w) /\ okw w.
  Proof.
    intros [[-> Hw] | [[-> [-> ->]] | [[-> [-> ->]] | [[-> [-> ->]] | [b [-> [-> Hw]]]]]]]; repeat split; auto.
  Qed.

  Lemma lower_cast_ok ts sg w a st : cast_ty ts sg w -> goodpv a ->
    exists r, lower_cast cfg ts (IPure a) st = OK (IPure r, st) /\ goodpv r /\
      (forall v b, pv_kind r = KLit v b -> r = a) /\
      forall ms va, sem ms a va ->
        exists vr, sem ms r vr /\ cval_of (pv_ty r) vr = conv (sg, w) (cval_of (pv_ty a) va).
  Proof.
    intros Hts Hga. destruct (cast_ty_ok ts sg w st Hts) as [R1 [_ Hw]].
    destruct (init_a_cast_ok sg w a st Hw Hga) as [a' [A1 [A2 [A3 [A4 A5]]]]].
    unfold lower_cast. (erewrite bind_OK by exact R1). (erewrite bind_OK by reflexivity).
    unfold ty_eq.
    assert (Hnum : is_numeric (pv_ty a) && is_numeric (ty_int sg w) = true).
    { destruct Hga as [[Ht _] | [s0 [w0 [_ [Ht _]]]]]; rewrite Ht; reflexivity. }
    rewrite Hnum. (erewrite bind_OK by reflexivity).
    destruct (vtype_eqb (pv_ty a) (ty_int sg w)) eqn:Eeq.
    - exists a. split; [reflexivity|]. split; [auto|]. split; [auto|].
      intros ms va Sa. exists va. split; [auto|].
      destruct Hga as [[Ht _] | [s0 [w0 [Hw0 [Ht _]]]]].
      + rewrite Ht in Eeq. exfalso. unfold vtype_eqb in Eeq. cbn in Eeq. okw_cases Hw; discriminate.
      + destruct (ity_inv _ _ _ Ht) as [h0 E]. rewrite E in Eeq.
        apply (vtype_eqb_h h0 s0 w0 false sg w) in Eeq. destruct Eeq as [-> ->].
        destruct (sem_int _ _ _ _ _ Ht Sa) as [z [-> [Hz _]]]. rewrite (cval_of_ity _ sg w z Ht).
        symmetry. apply (conv_same ((sg, w), z)). split; auto.
    - (erewrite bind_OK by exact A1). exists a'. split; [reflexivity|]. auto.
  Qed.

  (* Lower.lower_expr handles each form in one match arm, after lowering the sub-expressions.  To state a lemma about the part
     of an arm that follows the recursive calls, that part is copied here as a function of the lowered items ([cond_tail],
     and below [load_tail], [mac_tail]; StmtCorrect has more), and a lemma proved by reflexivity ([lower_expr_cond]) ties the
     copy to the arm: an edit of that arm in Lower.v has to be repeated in the copy, or that lemma fails *)
  Definition cond_tail (ic it if_ : item) : M item :=
    do pc <- as_pure "conditional" ic;
    match fold_cond pc with
    | Some b =>
        if fx_literals (fx cfg) then
          do pt <- as_pure "conditional" it; do pf <- as_pure "conditional" if_;
          do ppt <- promotion_cast cfg pt; do ppf <- promotion_cast cfg pf;
          do '(pt', pf') <- cast_operands cfg false ppt ppf;
          ret (IPure (if b then pt' else pf'))
        else
        do dead <- (match (if b then if_ else it) with IPure p => ret p | _ => fail "dead arm has no name" end);
        do _ <- rm_op dead;
        ret (if b then it else if_)
    | None =>
        do pt <- as_pure "conditional" it; do pf <- as_pure "conditional" if_;
        do _ <- (match pv_kind pt with KTmp n true => update_gcc_branch n (cond_of cfg pc) true | _ => ret tt end);
        do _ <- (match pv_kind pf with KTmp n true => update_gcc_branch n (cond_of cfg pc) false | _ => ret tt end);
        do '(pt', pf') <- (if fx_cmp_promote (fx cfg) then do ppt <- promotion_cast cfg pt; do ppf <- promotion_cast cfg pf; cast_operands cfg false ppt ppf
                           else cast_operands cfg false pt pf);
        ret (IPure (mkpv (PIte (cond_of cfg pc) (rd pt') (rd pf')) (pv_ty pt') KExec (pv_tmps pc ++ pv_tmps pt' ++ pv_tmps pf')))
    end.

  Lemma lower_expr_cond c t f :
    lower_expr cfg (ECond c t f) =
    (do ic <- lower_expr cfg c; do it <- lower_expr cfg t; do if_ <- lower_expr cfg f; cond_tail ic it if_).
  Proof. reflexivity. Qed.

  Lemma gcc_match_skip p (X : string -> M unit) : goodpv p ->
    (match pv_kind p with KTmp n true => X n | _ => ret tt end) = ret tt.
  Proof.
    intros [[_ [Hk _]] | [sg [w [_ [_ [Hk _]]]]]];
    destruct (pv_kind p) as [? [|]| | | | |? [|] | | |]; cbn in Hk; try contradiction; reflexivity.
  Qed.

  Lemma fold_cond_nolit p : goodpv p -> ~ islit p -> fold_cond p = None.
  Proof.
    unfold fold_cond, islit. intros [[_ [Hk _]] | [sg [w [_ [_ [Hk _]]]]]] Hn;
    destruct (pv_kind p) as [? [|]| | | | |? [|] | | |]; cbn in Hk; try contradiction; try reflexivity; exfalso; apply Hn; exact I.
  Qed.

  Lemma cond_tail_ok pc pt pf st : goodpv pc -> goodpv pt -> goodpv pf -> ~ islit pc ->
    exists r, cond_tail (IPure pc) (IPure pt) (IPure pf) st = OK (IPure r, st) /\ goodpv r /\ ~ islit r /\
      forall ms vc vt vf, sem ms pc vc -> sem ms pt vt -> sem ms pf vf ->
        exists vr, sem ms r vr /\
          cval_of (pv_ty r) vr =
            conv (arith_ty (cty_of (pv_ty pt)) (cty_of (pv_ty pf)))
                 (if truth (cval_of (pv_ty pc) vc) then cval_of (pv_ty pt) vt else cval_of (pv_ty pf) vf).
  Proof.
    intros Hgc Hgt Hgf Hnl.
    destruct (prep_ok pt pf st Hgt Hgf) as [a' [c' [H1 [Ga' [Gc' [Ta' [Tc' [Hw H2]]]]]]]].
    set (t := arith_ty (cty_of (pv_ty pt)) (cty_of (pv_ty pf))) in *.
    exists (mkpv (PIte (cond_of cfg pc) (rd a') (rd c')) (pv_ty a') KExec (pv_tmps pc ++ pv_tmps a' ++ pv_tmps c')).
    split.
    { unfold cond_tail. (erewrite bind_OK by reflexivity). rewrite fold_cond_nolit by auto.
      (erewrite bind_OK by reflexivity). (erewrite bind_OK by reflexivity).
      rewrite !gcc_match_skip by auto.
      (erewrite bind_OK by reflexivity). (erewrite bind_OK by reflexivity).
      cbn [fx cfg_fx fx_cmp_promote all_fixes]. (erewrite bind_OK by exact H1). reflexivity. }
    split. { right. exists (fst t), (snd t). gp. rewrite (goodpv_tmps pc Hgc), (goodpv_tmps2 a' c' Ga' Gc'). reflexivity. }
    split. { cbn. auto. }
    intros ms vc vt vf Sc St Sf.
    destruct (H2 ms vt vf St Sf) as [x [y [Sa' [Sc' [_ [Ca Cc]]]]]].
    destruct (sem_int _ _ _ _ _ Ta' Sa') as [x0 [Ex0 [Hx Ex]]]. injection Ex0 as <-.
    destruct (sem_int _ _ _ _ _ Tc' Sc') as [y0 [Ey0 [Hy Ey]]]. injection Ey0 as <-.
    pose proof (cond_ok pc ms vc Hgc Sc) as Ec.
    exists (VBv (snd t) (if truth (cval_of (pv_ty pc) vc) then x else y)). split.
    - split.
      + cbn [pv_term fin_pure eval]. unfold rd. rewrite Ec, Ex, Ey. cbn [sort_of_val sort_eqb]. rewrite N.eqb_refl.
        destruct (truth (cval_of (pv_ty pc) vc)); reflexivity.
      + cbn [pv_ty]. apply (shape_ity _ (fst t)); [exact Ta'|]. destruct (truth (cval_of (pv_ty pc) vc)); auto.
    - cbn [pv_ty]. rewrite (cval_of_t a' t _ Ta'). destruct (truth (cval_of (pv_ty pc) vc)); [rewrite Ca | rewrite Cc]; reflexivity.
  Qed.

  (* a conversion never produces a literal: a literal result is the unconverted operand *)
  Lemma init_a_cast_lit t p st r st' : init_a_cast cfg t p st = OK (r, st') -> islit r -> r = p.
  Proof.
    unfold init_a_cast, islit. destruct (vt_float t || vt_float (pv_ty p)); [discriminate|].
    unfold bind, ty_eq. destruct (is_numeric t && is_numeric (pv_ty p)); [|discriminate].
    unfold ret. destruct (vtype_eqb t (pv_ty p)).
    - intros H _. injection H as <- _. reflexivity.
    - destruct (vt_bool (pv_ty p) && negb (vt_bool t)); intros H; injection H as <- _; cbn [pv_kind]; contradiction.
  Qed.
  Lemma promotion_cast_lit p st r st' : promotion_cast cfg p st = OK (r, st') -> islit r -> r = p.
  Proof.
    unfold promotion_cast, bind, need_numeric. destruct (is_numeric (pv_ty p)); [|discriminate]. unfold ret.
    destruct (promoted_vtype (pv_ty p)) as [t|]; [|discriminate]. unfold ty_eq.
    destruct (is_numeric t && is_numeric (pv_ty p)); [|discriminate]. unfold ret.
    destruct (vtype_eqb t (pv_ty p)).
    - intros H _. injection H as <- _. reflexivity.
    - apply init_a_cast_lit.
  Qed.
  Lemma cast_operands_lit a b st a' b' st' : cast_operands cfg false a b st = OK ((a', b'), st') ->
    (islit a' -> a' = a) /\ (islit b' -> b' = b).
  Proof.
    unfold cast_operands, bind, ty_eq. destruct (is_numeric (pv_ty a) && is_numeric (pv_ty b)); [|discriminate]. unfold ret.
    destruct (vtype_eqb (pv_ty a) (pv_ty b)).
    - intros H. injection H as <- <- _. split; reflexivity.
    - destruct (c11_vtypes (pv_ty a) (pv_ty b)) as [[ca cb]|]; [|discriminate].
      destruct (negb (vt_w ca =? vt_w (pv_ty a))%N || negb (Bool.eqb (vt_sg ca) (vt_sg (pv_ty a)))).
      + destruct (init_a_cast cfg ca a st) as [[xa s1]|] eqn:Ea; [|discriminate].
        destruct (negb (vt_w cb =? vt_w (pv_ty b))%N || negb (Bool.eqb (vt_sg cb) (vt_sg (pv_ty b)))).
        * destruct (init_a_cast cfg cb b s1) as [[xb s2]|] eqn:Eb; [|discriminate]. intros H. injection H as <- <- _.
          split; [exact (init_a_cast_lit _ _ _ _ _ Ea) | exact (init_a_cast_lit _ _ _ _ _ Eb)].
        * intros H. injection H as <- <- _. split; [exact (init_a_cast_lit _ _ _ _ _ Ea) | reflexivity].
      + destruct (negb (vt_w cb =? vt_w (pv_ty b))%N || negb (Bool.eqb (vt_sg cb) (vt_sg (pv_ty b)))).
        * destruct (init_a_cast cfg cb b st) as [[xb s2]|] eqn:Eb; [|discriminate]. intros H. injection H as <- <- _.
          split; [reflexivity | exact (init_a_cast_lit _ _ _ _ _ Eb)].
        * intros H. injection H as <- <- _. split; reflexivity.
  Qed.

  Lemma islit_dec p : islit p \/ ~ islit p.
  Proof. unfold islit. destruct (pv_kind p); auto. Qed.

  Lemma lit_zero (T : cty) v : (snd T = 32%N \/ snd T = 64%N) -> norm_lit (ty_int (fst T) (snd T)) v = v -> (wrap (snd T) v =? 0) = (v =? 0).
  Proof.
    destruct T as [sg w]. cbn [fst snd]. intros Hw Hn. rewrite norm_lit_interp in Hn.
    destruct (Z.eqb_spec v 0) as [-> | Hv]; [reflexivity|].
    apply Z.eqb_neq. intros E. apply Hv. rewrite <- Hn, E.
    refine (interp_wrap_fit sg w 0 _ _); [destruct Hw as [-> | ->]; reflexivity|].
    pose proof (pow2_pos w). pose proof (pow2_pos (w - 1)). destruct sg; lia.
  Qed.

  Lemma fold_cond_lit p : islit p -> exists v k, pv_kind p = KLit v k /\ fold_cond p = Some (negb (v =? 0)).
  Proof.
    unfold fold_cond, islit. intros Hi. destruct (pv_kind p) as [v k| | | | | | | |]; try contradiction. exists v, k. split; reflexivity.
  Qed.

  (* the repaired compiler keeps BOTH arms' conversions to their common type and selects at compile time *)
  Lemma cond_tail_lit_ok pc pt pf st : goodpv pc -> goodpv pt -> goodpv pf -> litinv pc -> litinv pt -> litinv pf -> islit pc ->
    exists r, cond_tail (IPure pc) (IPure pt) (IPure pf) st = OK (IPure r, st) /\ goodpv r /\ litinv r /\
      forall ms vc vt vf, sem ms pc vc -> sem ms pt vt -> sem ms pf vf ->
        exists vr, sem ms r vr /\
          cval_of (pv_ty r) vr =
            conv (arith_ty (cty_of (pv_ty pt)) (cty_of (pv_ty pf)))
                 (if truth (cval_of (pv_ty pc) vc) then cval_of (pv_ty pt) vt else cval_of (pv_ty pf) vf).
  Proof.
    intros Hgc Hgt Hgf Lic Lit Lif Hic.
    destruct (fold_cond_lit pc Hic) as [v [k [Hk Hf]]].
    destruct (prep_ok pt pf st Hgt Hgf) as [a' [c' [H1 [Ga' [Gc' [Ta' [Tc' [Hw H2]]]]]]]].
    set (b := negb (v =? 0)) in *.
    (* the literal arms survive unconverted *)
    assert (Hkeep : (islit a' -> a' = pt) /\ (islit c' -> c' = pf)).
    { revert H1. unfold bind.
      destruct (promotion_cast cfg pt st) as [[pa s1]|] eqn:Epa; [|discriminate].
      destruct (promotion_cast cfg pf s1) as [[pb s2]|] eqn:Epb; [|discriminate].
      intros H1. destruct (cast_operands_lit _ _ _ _ _ _ H1) as [Ka Kc]. split.
      - intros Hi. pose proof (Ka Hi) as ->. exact (promotion_cast_lit _ _ _ _ Epa Hi).
      - intros Hi. pose proof (Kc Hi) as ->. exact (promotion_cast_lit _ _ _ _ Epb Hi). }
    exists (if b then a' else c').
    split.
    { unfold cond_tail. (erewrite bind_OK by reflexivity). rewrite Hf.
      cbn [fx cfg_fx fx_literals all_fixes]. (erewrite bind_OK by reflexivity). (erewrite bind_OK by reflexivity).
      revert H1. unfold bind.
      destruct (promotion_cast cfg pt st) as [[pa s1]|]; [|discriminate].
      destruct (promotion_cast cfg pf s1) as [[pb s2]|]; [|discriminate].
      intros H1. rewrite H1. reflexivity. }
    split. { destruct b; assumption. }
    split.
    { destruct (islit_dec (if b then a' else c')) as [Hi | Hn]; [|intros v0 k0 Hk0; exfalso; apply Hn; unfold islit; rewrite Hk0; exact I].
      destruct b; [rewrite (proj1 Hkeep Hi); exact Lit | rewrite (proj2 Hkeep Hi); exact Lif]. }
    intros ms vc vt vf Sc St Sf.
    destruct (H2 ms vt vf St Sf) as [x [y [Sa' [Sc' [_ [Ca Cc]]]]]].
    (* the condition's run-time value is the literal's *)
    destruct (lit_sem pc v k Lic Hk) as [Hw32 [_ [Hn Hsemc]]].
    assert (Ht : truth (cval_of (pv_ty pc) vc) = b).
    { rewrite (Hsemc ms vc Sc). unfold truth, b. cbn [snd]. f_equal.
      apply lit_zero; [exact Hw32|]. destruct (cty_of (pv_ty pc)) as [sg0 w0]. exact Hn. }
    rewrite Ht.
    destruct b; eexists; (split; [eassumption|]); [rewrite (cval_of_t a' _ x Ta'), Ca | rewrite (cval_of_t c' _ y Tc'), Cc]; reflexivity.
  Qed.

  Variable E : cenv.
  Variable csub : csubs.
  (* CSem gives `sizeof` no body either (only the lemma about sizeof uses this) *)
  Hypothesis Hcsub : csub_ext csub.
  Variable xi : string -> bool -> option (regop * N).
  (* (the C semantics knows the explicit registers of the fragment: ExprCorrect.xi_ok) *)
  Hypothesis Hxi : xi_ok xi.

  Definition folding_opb (b : Ast.binop) : bool :=
    match b with
    | Ast.BAdd | Ast.BSub | Ast.BMul | Ast.BLt | Ast.BGt | Ast.BLe | Ast.BGe | Ast.BEq | Ast.BNe => true
    | _ => false
    end.
  (* over-approximation of "lowers to a literal (KLit)" *)
  Fixpoint litlike (e : cexpr) : bool :=
    match e with
    | EOp (ONum _ _ _) => true
    | ECast _ a => litlike a
    | EUn UNot a | EUn UMinus a => litlike a
    | EBin b l r => folding_opb b && litlike l && litlike r
    | Ast.ECall f _ => String.eqb f "sizeof"
    | ECond c _ _ => litlike c           (* a literal condition is folded: the result is the selected arm, possibly a literal *)
    | _ => false
    end.

  Definition is_folding_op (b : Ast.binop) : Prop :=
    b = Ast.BAdd \/ b = Ast.BSub \/ b = Ast.BMul \/ is_cmp b.
  Definition is_plain_op (b : Ast.binop) : Prop :=
    b = Ast.BAnd \/ b = Ast.BOr \/ b = Ast.BXor \/ b = Ast.BShl \/ b = Ast.BShr \/ b = Ast.BLAnd \/ b = Ast.BLOr.

  Definition is_mac1 (m : string) : Prop := m = "bswap16" \/ m = "bswap32" \/ m = "bswap64".
  Definition is_mac3 (m : string) : Prop := m = "extract32" \/ m = "extract64" \/ m = "sextract64".
  Definition is_mac4 (m : string) : Prop := m = "deposit32" \/ m = "deposit64".

  (* V = the DECLARED LOCALS of the model state (immediates, which the model keeps in the same table, are
     tracked by [lst_ok]); IM = the letters of the immediates the behaviour uses.  Register operands: the machine must give the operand handle the width the
     shortcode convention gives the operand (RsV and RssV share the handle ISA2REG(hi,'s'): an instruction
     uses one of them). *)
  Inductive pfrag (V : list (string * option vtype)) : cexpr -> Prop :=
  | pf_ident x sg w : lookup x V = Some (Some (ty_int sg w)) -> okw w -> pfrag V (EOp (OIdent x))
  | pf_num v hex suf t : 0 <= v -> literal_type v hex suf = Some t -> pfrag V (EOp (ONum v hex suf))
  | pf_reg cls letters acc :                 (* RsV RtV .. RxV .. RssV .. PuV CsV MuV; also RdV / RddV read back *)
      dest_cls cls -> access_of_letters letters = Some acc ->
      rw (RIsa cls (substring 0 1 letters) false) = dest_w cls acc -> pfrag V (EOp (OReg cls letters))
  | pf_newreg cls letters acc :              (* PuN NsN ... *)
      reg_cls true cls -> access_of_letters letters = Some acc ->
      rw (rop cls letters true) = dest_w cls acc -> pfrag V (EOp (ONewReg cls letters))
  | pf_imm l : IM l = true -> pfrag V (EOp (OImm l))      (* siV uiV riV ... *)
  | pf_alias name new :                      (* HEX_REG_ALIAS_USR, HEX_REG_ALIAS_LC0_NEW ... (not the program counter) *)
      In name alias_names -> rw (alias_op name new) = alias_w name -> pfrag V (EOp (OAlias name new))
  | pf_expl name new :                       (* P0 .. P3 (fREAD_P0 ...), R29 R30 R31, and their _NEW forms *)
      In name expl_names -> rw (expl_op name new) = expl_w name -> pfrag V (EOp (OExplicit name new))
  | pf_pc : pfrag V (EOp (OAlias "PC" false))   (* HEX_REG_ALIAS_PC: read only; emitted as the packet address *)
  | pf_cast ts sg w e : cast_ty ts sg w -> pfrag V e -> pfrag V (ECast ts e)
  | pf_un u e : (u = UNot \/ u = UMinus \/ u = ULNot) -> pfrag V e -> pfrag V (EUn u e)
  | pf_bin b l r : is_folding_op b \/ is_plain_op b -> pfrag V l -> pfrag V r -> pfrag V (EBin b l r)
  | pf_cond c t f : pfrag V c -> pfrag V t -> pfrag V f -> pfrag V (ECond c t f)   (* also with a literal condition (folded at compile time) *)
  | pf_sizeof e : pfrag V e -> pfrag V (Ast.ECall "sizeof" (ECons e ENil))    (* sizeof(e): a compile-time literal (see inv_sizeof) *)
  | pf_load ts sg w lsg lw a :               (* (T) mem_load_<s|u><lw>(a): a memory load, converted to an integer type *)
      cast_ty ts sg w -> okw lw -> pfrag V a -> pfrag V (ECast ts (ELoad lsg lw (ECons a ENil)))
  | pf_mac1 m x : is_mac1 m -> pfrag V x -> pfrag V (EMacro m (ECons x ENil))                       (* bswap16/32/64(x) *)
  | pf_mac3 m x s l : is_mac3 m -> pfrag V x -> pfrag V s -> pfrag V l ->                           (* extract32/64, sextract64 (x, start, len) *)
      pfrag V (EMacro m (ECons x (ECons s (ECons l ENil))))
  | pf_mac4 m x s l f : is_mac4 m -> pfrag V x -> pfrag V s -> pfrag V l -> pfrag V f ->            (* deposit32/64 (x, start, len, field) *)
      pfrag V (EMacro m (ECons x (ECons s (ECons l (ECons f ENil))))).

  (* the value an immediate has in C: the encoded one, unless the behaviour has assigned the immediate (CSem keeps an
     assigned immediate in the C local "imm:<letter>") *)
  Definition cimm (cs : cstate) (l : string) : Z :=
    match lookup ("imm:" +++ l) (cs_vars cs) with Some (_, Some v) => v | _ => wrap 32 (ce_imms E l) end.

  (* the state relation: every declared integer local holds the same in-range value on both sides; the
     registers written so far are the same list; the operand environment of the C side (old register file,
     new-value bank of the producers, immediates) is the one of the IL machine *)
  Definition rel (V : list (string * option vtype)) (cs : cstate) (ms : mstate) : Prop :=
    (forall x sg w, lookup x V = Some (Some (ty_int sg w)) -> okw w ->
      exists v, lookup x (cs_vars cs) = Some ((sg, w), Some v) /\ 0 <= v < pow2 w /\
                lookup x (locals ms) = Some (VBv w v)) /\
    cs_regw cs = rnew ms /\
    (forall r, ce_rold E r = rold ms r) /\ (forall r, ce_rnew0 E r = rnew0 ms r) /\
    (forall l, ce_imms E l = imms ms l) /\
    (forall l, IM l = true -> 0 <= cimm cs l < pow2 32) /\
    cs_mem cs = mem ms /\ (forall a, ce_mem0 E a = mem0 ms a) /\
    (* the packet address; the program counter alias has not been written *)
    ce_pktaddr E = pktaddr ms /\ lookup_reg pc_op (cs_regw cs) = None.

  (* the immediate prologue J (a list of effects SETL(l, ISA2IMM l), Lower.st_imms) has been executed: the RzIL local of
     every immediate of J holds the value the immediate has in C (the encoded one, or the one assigned since) *)
  Definition imms_done (J : list effect) (cs : cstate) (ms : mstate) : Prop :=
    forall l, IM l = true -> In (imm_entry l) J -> lookup l (locals ms) = Some (VBv 32 (cimm cs l)).
  Lemma imms_done_incl A B cs ms : incl A B -> imms_done B cs ms -> imms_done A cs ms.
  Proof. intros Hi H l Hl Hin. apply H; auto. Qed.

  (* the model states the fragment reaches, V being the declared locals: the variable table is V plus the
     immediates read so far, each with its prologue entry; the register table was built by the fragment *)
  Definition lst_ok (V : list (string * option vtype)) (st : lstate) : Prop :=
    (* (up to the hybrid flag, which the compiler sets on the type of a variable it has applied ++ to; the temporaries
       h_tmp<n> it declares for ++ are not locals of the behaviour) *)
    (forall x, IM x = false -> is_htmp x = false -> option_map unhyb_o (lookup x (st_vars st)) = lookup x V) /\
    (forall l, IM l = true \/ is_htmp l = true -> lookup l V = None) /\
    (forall l, IM l = true ->
       lookup l (st_vars st) = None \/ (lookup l (st_vars st) = Some (Some (imm_ty l)) /\ In (imm_entry l) (st_imms st))) /\
    Forall (fun e => exists l, IM l = true /\ e = imm_entry l /\ lookup l (st_vars st) = Some (Some (imm_ty l))) (st_imms st) /\
    regs_ok (st_regs st).

  Lemma lst_ok_regs V st st' : lst_ok V st -> st_vars st' = st_vars st -> st_imms st' = st_imms st ->
    regs_ok (st_regs st') -> lst_ok V st'.
  Proof. intros [H1 [H2 [H3 [H4 _]]]] Hv Hi Hr. unfold lst_ok. rewrite Hv, Hi. auto. Qed.

  Lemma lst_ok_local V st x sg w : lst_ok V st -> lookup x V = Some (Some (ty_int sg w)) ->
    IM x = false /\ is_htmp x = false /\ exists t, lookup x (st_vars st) = Some (Some t) /\ ity t sg w.
  Proof.
    intros [H1 [H2 _]] Hx. destruct (IM x) eqn:Ei; [rewrite (H2 x (or_introl Ei)) in Hx; discriminate Hx|].
    destruct (is_htmp x) eqn:Eh; [rewrite (H2 x (or_intror Eh)) in Hx; discriminate Hx|].
    split; [reflexivity|]. split; [reflexivity|]. specialize (H1 x Ei Eh). rewrite Hx in H1.
    destruct (lookup x (st_vars st)) as [[t|]|]; try discriminate H1. cbn [option_map unhyb_o] in H1.
    assert (Hu : unhyb t = ty_int sg w) by congruence.
    exists t. split; [reflexivity | apply unhyb_ity; exact Hu].
  Qed.
  Lemma lst_ok_none V st x : lst_ok V st -> IM x = false -> is_htmp x = false -> lookup x V = None -> lookup x (st_vars st) = None.
  Proof.
    intros [H1 _] Hi Hh Hx. specialize (H1 x Hi Hh). rewrite Hx in H1. destruct (lookup x (st_vars st)); [discriminate H1 | reflexivity].
  Qed.

  (* no side condition on the evaluation: CSem gives `c ? t : f` no value when either arm has none (CSem.ceval, ECond);
     expr_correct carries this trivial premise, expr_correct_unconditional is the same theorem without it *)
  Definition arms_ok (fuel : nat) (cs : cstate) (e : cexpr) : Prop := True.

  (* the semantic half of the invariant: for the term finalised against any later register table R *)
  Definition semok (V : list (string * option vtype)) (e : cexpr) (pv : pval) (st' : lstate) : Prop :=
    regs_le (st_regs st') R -> norem rem ->
    forall cs ms, rel V cs ms -> imms_done (st_imms st') cs ms ->
      exists ilv, sem ms pv ilv /\
        forall fuel cs' cv, ceval E csub xi fuel cs e = Some (cs', cv) -> arms_ok fuel cs e ->
          cs' = cs /\ cv = cval_of (pv_ty pv) ilv.

  Lemma semok_mono V e pv st1 st2 : st_ext st1 st2 -> semok V e pv st1 -> semok V e pv st2.
  Proof.
    intros [_ [_ [Hi [_ [_ Hr]]]]] H HR Hrem cs ms Hrel Himm.
    apply H; [eapply regs_le_trans; eassumption | exact Hrem | exact Hrel | eapply imms_done_incl; eassumption].
  Qed.

  (* the model's variable table may hold MORE declared locals (Vl) than the run-time states are related on (V): the
     implicitly declared EA of `EA = e` is entered into the table before e is lowered, and gets its value after *)
  Definition vext (V Vl : list (string * option vtype)) : Prop := forall x t, lookup x V = Some t -> lookup x Vl = Some t.
  Lemma vext_refl V : vext V V.
  Proof. intros x t H. exact H. Qed.
  Lemma vext_snoc V x t : lookup x V = None -> vext V (V ++ [(x, t)]).
  Proof. intros Hx y u Hy. rewrite lookup_app, Hy. reflexivity. Qed.

  (* the invariant every case of the induction over [pfrag] establishes: from any state of the fragment, e lowers to a pure
     value pv of the fragment (in order: the lowering, the state extension, the state stays one of the fragment, [goodpv],
     [litinv], a literal only where [litlike] foresees one) which means what CSem gives e ([semok]) *)
  Definition Inv (V : list (string * option vtype)) (e : cexpr) : Prop :=
    forall Vl st, vext V Vl -> lst_ok Vl st ->
      exists pv st', lower_expr cfg e st = OK (IPure pv, st') /\ st_ext st st' /\ lst_ok Vl st' /\
        goodpv pv /\ litinv pv /\ (islit pv -> litlike e = true) /\ semok V e pv st'.

  Lemma nolit_litinv p : ~ islit p -> litinv p.
  Proof. intros H v b Hk. exfalso. apply H. unfold islit. rewrite Hk. exact I. Qed.

  Lemma inv_ident V x sg w : lookup x V = Some (Some (ty_int sg w)) -> okw w -> Inv V (EOp (OIdent x)).
  Proof.
    intros Hl Hw Vl st Hext Hok. destruct (lst_ok_local Vl st x sg w Hok (Hext _ _ Hl)) as [_ [Hh [t [Hls Ht]]]].
    unfold is_htmp in Hh.
    eexists (mkpv (PVarL x) t (KVar x) []), st.
    split. { cbn [lower_expr lower_operand cfg_params lookup]. unfold bind, get. rewrite Hls, Hh. reflexivity. }
    split. { apply st_ext_refl. }
    split. { exact Hok. }
    assert (Hnl : ~ islit (mkpv (PVarL x) t (KVar x) [])).
    { unfold islit. cbn. auto. }
    split. { apply (goodpv_i _ sg w); [exact Hw | exact Ht | exact I | reflexivity]. }
    split. { apply nolit_litinv. auto. }
    split. { intros H. contradiction. }
    intros _ _ cs ms Hrel _. destruct (proj1 Hrel x sg w Hl Hw) as [v [Hc [Hv Hm]]].
    exists (VBv w v). split.
    - split; [exact Hm | apply (shape_ity _ sg w); auto].
    - intros fuel cs' cv Hce _. destruct fuel as [|k]; [discriminate|].
      cbn [ceval operand_lval] in Hce. rewrite Hc in Hce. cbn [read_lval] in Hce. rewrite Hc in Hce.
      injection Hce as <- <-. split; [reflexivity|]. cbn [pv_ty]. rewrite (cval_of_ity _ sg w v Ht). reflexivity.
  Qed.

  Lemma norm_lit_fits sg w v : (w = 32%N \/ w = 64%N) -> 0 <= v -> fits (sg, w) v = true -> norm_lit (ty_int sg w) v = v.
  Proof.
    intros Hw Hv Hf. rewrite norm_lit_interp. apply interp_wrap_fit; [destruct Hw as [-> | ->]; reflexivity|].
    unfold fits in Hf; cbn [fst snd] in Hf. destruct sg; lia.
  Qed.

  Lemma inv_num V v hex suf t : 0 <= v -> literal_type v hex suf = Some t -> Inv V (EOp (ONum v hex suf)).
  Proof.
    intros Hv Hl Vl st Hext Hok. destruct (literal_type_cases _ _ _ _ Hl) as [Hw Hfit]. destruct t as [sg w]. cbn [fst snd] in *.
    assert (Hokw : okw w) by (destruct Hw as [-> | ->]; auto).
    exists (mkpv (PBv sg w v) (ty_int sg w) (KLit v false) []).
    eexists.
    split. { cbn [lower_expr lower_operand fx cfg_fx fx_literals all_fixes]. rewrite literal_vtype_eq, Hl. cbn [option_map fst snd]. reflexivity. }
    split. { unfold st_ext. cbn. repeat split; auto using incl_refl, regs_le_refl, N.le_refl. }
    split. { eapply lst_ok_regs; [exact Hok | reflexivity | reflexivity | apply Hok]. }
    split. { right. exists sg, w. gp. }
    split. { intros v0 b0 Hk. cbn in Hk. injection Hk as <- <-. left. split; [reflexivity|]. exists sg, w. cbn.
             repeat split; auto. apply norm_lit_fits; auto. }
    split. { reflexivity. }
    intros _ _ cs ms _ _. exists (VBv w (wrap w v)). split.
    - split; [reflexivity | apply shape_int; apply wrap_range].
    - intros fuel cs' cv Hce _. destruct fuel as [|k]; [discriminate|].
      cbn [ceval] in Hce. rewrite Hl in Hce. injection Hce as <- <-. auto.
  Qed.

  Lemma fin_read regs n ri : lookup_reg_info n regs = Some ri -> regs_le regs R -> norem rem ->
    exists ri', r_op ri' = r_op ri /\ r_pc ri' = r_pc ri /\ r_new ri' = r_new ri /\ acc_le (r_pc ri) (r_acc ri) (r_acc ri') /\
      fin (PRaw ("$reg:" +++ n)) =
      if write_only (r_acc ri') then PReg (r_op ri') true else if r_pc ri' then PPktAddr else PReg (r_op ri') (r_new ri').
  Proof.
    intros Hl Hle Hrem. cbn [fin_pure]. rewrite reg_name_of_reg. unfold reg_read.
    destruct (Hle _ _ Hl) as [ri' [L' [O' [P' [N' W']]]]]. rewrite L', Hrem. exists ri'. auto.
  Qed.
  (* every register but the program counter: READ_REG(op, b); b is the new bank for a _NEW operand, and for one the
     behaviour only writes (which for an alias or an explicit register is known only from the final table) *)
  Lemma fin_read_nopc regs n ri : lookup_reg_info n regs = Some ri -> regs_le regs R -> norem rem -> r_pc ri = false ->
    exists b, fin (PRaw ("$reg:" +++ n)) = PReg (r_op ri) (b || r_new ri) /\ (r_acc ri <> AUnknown -> b = write_only (r_acc ri)).
  Proof.
    intros Hl Hle Hrem Hp. destruct (fin_read regs n ri Hl Hle Hrem) as [ri' [O' [P' [N' [W' F]]]]].
    exists (write_only (r_acc ri')). rewrite F, P', Hp, O', N'. split; [destruct (write_only (r_acc ri')); reflexivity|].
    intros Hu. destruct W' as [[_ W'] | [W' _]]; [contradiction | exact W'].
  Qed.

  (* a register-like operand other than the program counter: READ_REG(op, b || new); for an ISA operand b says whether the
     operand is destination-only (d, e, dd: read from the NEW bank) *)
  Lemma fin_read_at regs o k ri0 sg w ri : reg_operand o k ri0 sg w -> r_pc ri0 = false ->
    regs_ok regs -> lookup_reg_info (tname k) regs = Some ri -> regs_le regs R -> norem rem ->
    exists b, fin (PRaw ("$reg:" +++ tname k)) = PReg (r_op ri0) (b || r_new ri0) /\
              (isa_entry (tname k) ri0 -> b = write_only (r_acc ri0)).
  Proof.
    intros [_ [_ [He _]]] Hp0 Hr Hl Hle Hrem. destruct (entry_same _ ri0 ri He (Hr _ _ Hl)) as [Ho [_ [Hp [Hn Ha]]]].
    destruct (fin_read_nopc regs _ ri Hl Hle Hrem) as [b [F Hb]]; [congruence|].
    exists b. rewrite F, Ho, Hn. split; [reflexivity|].
    intros Hi. destruct (Ha Hi) as [Hw Hu]. rewrite (Hb Hu). exact Hw.
  Qed.
  (* the program counter: as long as the behaviour does not write the alias, its reads are the packet address *)
  Lemma fin_pc_read regs ri : regs_ok regs -> lookup_reg_info "pc" regs = Some ri -> regs_le regs R -> norem rem ->
    fin (PRaw ("$reg:" +++ "pc")) = PPktAddr.
  Proof.
    intros Hr Hl Hle Hrem. destruct pc_operand as [_ [_ [He _]]]. cbn [tname] in He.
    destruct (entry_same _ _ ri He (Hr _ _ Hl)) as [_ [_ [Hp [_ _]]]]. cbn [r_pc] in Hp.
    destruct (entry_of_key _ ri KeyPc (Hr _ _ Hl) pc_key eq_refl) as [_ [_ [_ [_ [_ Ha]]]]].
    destruct (fin_read regs "pc" ri Hl Hle Hrem) as [ri' [_ [P' [_ [W' F]]]]]. rewrite F, P', Hp.
    rewrite Hp, Ha in W'. destruct W' as [[W' _] | [W' _]]; [discriminate W' | rewrite W'; reflexivity].
  Qed.

  Lemma read_reg_bank ms r b : regop_dest_only r = false -> (regop_is_new r = true -> b = true) ->
    read_reg rw ms r b =
    VBv (rw r) (wrap (rw r) (match lookup_reg r (rnew ms) with
                             | Some v => v
                             | None => if regop_is_new r then rnew0 ms r else rold ms r end)).
  Proof.
    intros Hd Hb. unfold read_reg. rewrite Hd. destruct (regop_is_new r); [rewrite (Hb eq_refl); reflexivity|].
    destruct b; reflexivity.
  Qed.
  Lemma read_reg_expl ms name new b : In name expl_names -> (new = true -> b = true) ->
    read_reg rw ms (expl_op name new) b =
    VBv (rw (expl_op name new))
        (wrap (rw (expl_op name new))
              (match lookup_reg (expl_op name new) (rnew ms) with
               | Some v => v
               | None => if new then rnew0 ms (expl_op name new) else rold ms (expl_op name new) end)).
  Proof.
    intros Hin Hb. destruct (expl_facts name new Hin) as [_ [Hx _]].
    destruct (expl_op name new) as [| n c nw | | |]; try discriminate Hx. apply eqb_prop in Hx. subst nw.
    exact (read_reg_bank ms (RExpl n c new) b eq_refl Hb).
  Qed.
  Lemma read_reg_new ms cls letters :
    read_reg rw ms (rop cls letters true) true =
    VBv (rw (rop cls letters true))
        (wrap (rw (rop cls letters true))
              (match lookup_reg (rop cls letters true) (rnew ms) with
               | Some v => v
               | None => rnew0 ms (rop cls letters true) end)).
  Proof. unfold read_reg, rop. destruct (String.eqb cls "N"); reflexivity. Qed.
  Lemma read_reg_src ms cls letters acc : access_of_letters letters = Some acc ->
    read_reg rw ms (RIsa cls (substring 0 1 letters) false) (write_only acc) =
    VBv (rw (RIsa cls (substring 0 1 letters) false))
        (wrap (rw (RIsa cls (substring 0 1 letters) false))
              (match lookup_reg (RIsa cls (substring 0 1 letters) false) (rnew ms) with
               | Some v => v
               | None => if write_only acc then 0 else rold ms (RIsa cls (substring 0 1 letters) false) end)).
  Proof.
    intros Ha. unfold read_reg. cbn [regop_is_new regop_dest_only].
    rewrite <- (proj1 (proj2 (proj2 (access_letters _ _ Ha)))). destruct (write_only acc); reflexivity.
  Qed.

  Lemma ceval_reg k cs cls letters acc : dest_cls cls -> access_of_letters letters = Some acc ->
    ceval E csub xi (S k) cs (EOp (OReg cls letters)) =
    Some (cs, mkval (true, dest_w cls acc)
                (match lookup_reg (RIsa cls (substring 0 1 letters) false) (cs_regw cs) with
                 | Some v => v
                 | None => if write_only acc then 0 else ce_rold E (RIsa cls (substring 0 1 letters) false) end)).
  Proof.
    intros Hc Ha. cbn [ceval operand_lval]. rewrite (proj1 (proj2 (dest_cls_widths cls Hc))).
    rewrite <- (proj1 (proj2 (access_letters _ _ Ha))). change (if is_pair acc then (cls_w cls * 2)%N else cls_w cls) with (dest_w cls acc).
    cbn [existsb read_lval]. rewrite orb_false_r. rewrite <- (proj1 (proj2 (proj2 (access_letters _ _ Ha)))).
    destruct (lookup_reg _ (cs_regw cs)); [reflexivity|]. destruct (write_only acc); reflexivity.
  Qed.
  Lemma ceval_newreg k cs cls letters acc : reg_cls true cls -> access_of_letters letters = Some acc ->
    ceval E csub xi (S k) cs (EOp (ONewReg cls letters)) =
    Some (cs, mkval (true, dest_w cls acc)
                (match lookup_reg (rop cls letters true) (cs_regw cs) with
                 | Some v => v
                 | None => ce_rnew0 E (rop cls letters true) end)).
  Proof.
    intros Hc Ha. cbn [ceval operand_lval]. rewrite (proj2 (reg_cls_widths _ cls Hc)).
    rewrite <- (proj1 (proj2 (access_letters _ _ Ha))). change (if is_pair acc then (cls_w cls * 2)%N else cls_w cls) with (dest_w cls acc).
    change (if String.eqb cls "N" then RNreg (substring 0 1 letters) else RIsa cls (substring 0 1 letters) true) with (rop cls letters true).
    cbn [read_lval]. destruct (lookup_reg _ (cs_regw cs)); reflexivity.
  Qed.
  Lemma ceval_alias k cs name new :
    ceval E csub xi (S k) cs (EOp (OAlias name new)) =
    Some (cs, mkval (false, alias_w name)
                (match lookup_reg (alias_op name new) (cs_regw cs) with
                 | Some v => v
                 | None => if new then ce_rnew0 E (alias_op name new)
                           else if String.eqb name "PC" then ce_pktaddr E else ce_rold E (alias_op name new) end)).
  Proof.
    cbn [ceval operand_lval read_lval]. change (RAlias ("HEX_REG_ALIAS_" ++ name)%string new) with (alias_op name new).
    destruct (lookup_reg _ (cs_regw cs)); reflexivity.
  Qed.
  Lemma ceval_expl k cs name new : In name expl_names ->
    ceval E csub xi (S k) cs (EOp (OExplicit name new)) =
    Some (cs, mkval (true, expl_w name)
                (match lookup_reg (expl_op name new) (cs_regw cs) with
                 | Some v => v
                 | None => if new then ce_rnew0 E (expl_op name new) else ce_rold E (expl_op name new) end)).
  Proof.
    intros Hin. cbn [ceval operand_lval]. rewrite (Hxi name new Hin), (proj1 (expl_facts name new Hin)). cbn [read_lval].
    destruct (lookup_reg _ (cs_regw cs)); reflexivity.
  Qed.
  Lemma alias_not_pc name : In name alias_names -> String.eqb name "PC" = false.
  Proof. intros H. cbn [alias_names In] in H. repeat (destruct H as [<- | H]; [reflexivity|]). contradiction. Qed.

  Lemma goodpv_kreg n sg w tm : okw w -> goodpv (mkpv tm (ty_int sg w) (KReg n) []).
  Proof. intros Hw. apply (goodpv_i _ sg w); [exact Hw | apply ity_int | exact I | reflexivity]. Qed.
  Lemma nolit_reg n sg w tm : ~ islit (mkpv tm (ty_int sg w) (KReg n) []).
  Proof. unfold islit. cbn. auto. Qed.

  (* every register-like operand: what finalisation makes of the read of its table name evaluates to the value CSem reads
     from the operand *)
  Lemma inv_regop V o k ri0 sg w : reg_operand o k ri0 sg w ->
    (forall regs ri cs ms, regs_ok regs -> lookup_reg_info (tname k) regs = Some ri -> regs_le regs R -> norem rem -> rel V cs ms ->
       exists z, eval rw ms [] (fin (PRaw ("$reg:" +++ tname k))) = Some (VBv w (wrap w z)) /\
                 forall n, ceval E csub xi (S n) cs (EOp o) = Some (cs, mkval (sg, w) z)) ->
    Inv V (EOp o).
  Proof.
    intros Ho Hsem Vl st Hext Hok.
    destruct (reg_operand_low cfg o k ri0 sg w st Ho (proj2 (proj2 (proj2 (proj2 Hok))))) as [st' [L [Hv [Hi [Hx [Hr [_ [ri Hl]]]]]]]].
    eexists _, st'.
    split; [exact L|]. split; [exact Hx|]. split; [eapply lst_ok_regs; eassumption|].
    split; [apply goodpv_kreg; exact (proj1 Ho)|]. split; [apply nolit_litinv; apply nolit_reg|].
    split; [intros H; exfalso; exact (nolit_reg _ _ _ _ H)|].
    intros HR Hrem cs ms Hrel _. destruct (Hsem (st_regs st') ri cs ms Hr Hl HR Hrem Hrel) as [z [Hev Hce]].
    exists (VBv w (wrap w z)). split.
    - split; [exact Hev | apply shape_int; apply wrap_range].
    - intros fuel cs' cv H _. destruct fuel as [|n]; [discriminate|].
      rewrite Hce in H. injection H as <- <-. split; reflexivity.
  Qed.

  Lemma inv_reg V cls letters acc : dest_cls cls -> access_of_letters letters = Some acc ->
    rw (RIsa cls (substring 0 1 letters) false) = dest_w cls acc -> Inv V (EOp (OReg cls letters)).
  Proof.
    intros Hc Ha Hrw. pose proof (isa_operand cls letters acc false (or_introl Hc) Ha) as Ho. apply (inv_regop V _ _ _ _ _ Ho).
    intros regs ri cs ms Hr Hl HR Hrem [_ [Hregw [Hrold _]]].
    destruct (fin_read_at regs _ _ _ _ _ ri Ho eq_refl Hr Hl HR Hrem) as [b [F Hb]].
    rewrite (Hb (entry_of_key _ _ _ (proj1 (proj2 (proj2 Ho))) (proj1 (proj2 Ho)) eq_refl)) in F. eexists. split.
    - rewrite F. cbn [r_op r_new r_acc eval].
      rewrite orb_false_r, (rop_dest cls letters false Hc), (read_reg_src ms cls letters acc Ha), Hrw. reflexivity.
    - intros n. rewrite (ceval_reg n cs cls letters acc Hc Ha), Hregw, Hrold. reflexivity.
  Qed.

  Lemma inv_newreg V cls letters acc : reg_cls true cls -> access_of_letters letters = Some acc ->
    rw (rop cls letters true) = dest_w cls acc -> Inv V (EOp (ONewReg cls letters)).
  Proof.
    intros Hc Ha Hrw. pose proof (isa_operand cls letters acc true Hc Ha) as Ho. apply (inv_regop V _ _ _ _ _ Ho).
    intros regs ri cs ms Hr Hl HR Hrem [_ [Hregw [_ [Hrnew0 _]]]].
    destruct (fin_read_at regs _ _ _ _ _ ri Ho eq_refl Hr Hl HR Hrem) as [b [F _]]. eexists. split.
    - rewrite F. cbn [r_op r_new eval]. rewrite orb_true_r, (read_reg_new ms cls letters), Hrw. reflexivity.
    - intros n. rewrite (ceval_newreg n cs cls letters acc Hc Ha), Hregw, Hrnew0. reflexivity.
  Qed.

  Lemma inv_alias V name new : In name alias_names -> rw (alias_op name new) = alias_w name -> Inv V (EOp (OAlias name new)).
  Proof.
    intros Hin Hrw. pose proof (alias_operand name new Hin) as Ho. apply (inv_regop V _ _ _ _ _ Ho).
    intros regs ri cs ms Hr Hl HR Hrem [_ [Hregw [Hrold [Hrnew0 _]]]].
    destruct (fin_read_at regs _ _ _ _ _ ri Ho eq_refl Hr Hl HR Hrem) as [b [F _]]. eexists. split.
    - rewrite F. cbn [r_op r_new eval]. rewrite (read_reg_bank ms (alias_op name new) (b || new) eq_refl), Hrw; [reflexivity | cbn; intros ->; apply orb_true_r].
    - intros n. rewrite (ceval_alias n cs name new), Hregw, Hrold, Hrnew0, (alias_not_pc name Hin). reflexivity.
  Qed.

  Lemma inv_expl V name new : In name expl_names -> rw (expl_op name new) = expl_w name -> Inv V (EOp (OExplicit name new)).
  Proof.
    intros Hin Hrw. pose proof (expl_operand name new Hin) as Ho. apply (inv_regop V _ _ _ _ _ Ho).
    intros regs ri cs ms Hr Hl HR Hrem [_ [Hregw [Hrold [Hrnew0 _]]]].
    destruct (fin_read_at regs _ _ _ _ _ ri Ho eq_refl Hr Hl HR Hrem) as [b [F _]]. eexists. split.
    - rewrite F. cbn [r_op r_new eval]. rewrite (read_reg_expl ms name new (b || new) Hin), Hrw; [reflexivity | intros ->; apply orb_true_r].
    - intros n. rewrite (ceval_expl n cs name new Hin), Hregw, Hrold, Hrnew0. reflexivity.
  Qed.

  Lemma inv_pc V : Inv V (EOp (OAlias "PC" false)).
  Proof.
    apply (inv_regop V _ _ _ _ _ pc_operand).
    intros regs ri cs ms Hr Hl HR Hrem [_ [_ [_ [_ [_ [_ [_ [_ [Hpk Hpc]]]]]]]]].
    exists (pktaddr ms). cbn [tname]. split; [rewrite (fin_pc_read regs ri Hr Hl HR Hrem); reflexivity|].
    intros n. rewrite ceval_alias. change (alias_op "PC" false) with pc_op. rewrite Hpc, Hpk. reflexivity.
  Qed.

  Lemma lookup_snoc_other {A} x y (v : A) l : String.eqb x y = false -> lookup x (l ++ [(y, v)]) = lookup x l.
  Proof. intros H. rewrite lookup_app. cbn [lookup]. rewrite H. destruct (lookup x l); reflexivity. Qed.
  Lemma lookup_snoc_some {A} x y (v w : A) l : lookup x l = Some w -> lookup x (l ++ [(y, v)]) = Some w.
  Proof. intros H. rewrite lookup_app, H. reflexivity. Qed.

  (* the lowering half, also used for an immediate as the DESTINATION of an assignment *)
  Lemma imm_low V l st : IM l = true -> lst_ok V st ->
    exists st', lower_operand cfg (OImm l) st = OK (IPure (mkpv (PVarL l) (imm_ty l) (KVar l) []), st') /\
      st_ext st st' /\ lst_ok V st' /\ In (imm_entry l) (st_imms st') /\ (started st -> st_nonempty st' = true).
  Proof.
    intros Hl Hok. pose proof Hok as [H1 [H2 [H3 [H4 H5]]]].
    destruct (H3 l Hl) as [Hn | [Hs Hin]].
    - eexists.
      split. { cbn [lower_operand]. unfold bind, get. rewrite Hn. unfold put, ret. reflexivity. }
      split. { unfold st_ext. cbn [st_pending st_hcount st_imms st_removed st_nonempty st_regs].
               repeat split; auto using regs_le_refl, N.le_refl. apply incl_appl, incl_refl. }
      split.
      { unfold lst_ok. cbn [st_vars st_imms st_regs]. split; [|split; [exact H2|split; [|split; [|exact H5]]]].
        - intros x Hx. rewrite lookup_snoc_other; [apply H1; exact Hx|].
          destruct (String.eqb_spec x l) as [->|_]; [congruence | reflexivity].
        - intros l' Hl'. destruct (String.eqb_spec l' l) as [->|Hne].
          + right. split; [rewrite lookup_app, Hn; cbn [lookup]; rewrite String.eqb_refl; reflexivity | apply in_or_app; right; left; reflexivity].
          + rewrite lookup_snoc_other by (apply String.eqb_neq; exact Hne).
            destruct (H3 l' Hl') as [? | [? ?]]; [left; assumption | right; split; [assumption | apply in_or_app; left; assumption]].
        - apply Forall_app. split.
          + eapply Forall_impl; [|exact H4]. intros e [l' [A [B C]]]. exists l'. split; [exact A|]. split; [exact B|].
            apply lookup_snoc_some. exact C.
          + constructor; [|constructor]. exists l. split; [exact Hl|]. split; [reflexivity|].
            rewrite lookup_app, Hn. cbn [lookup]. rewrite String.eqb_refl. reflexivity. }
      split; [cbn [st_imms]; apply in_or_app; right; left; reflexivity | intros _; reflexivity].
    - exists st.
      split. { cbn [lower_operand]. unfold bind, get. rewrite Hs. reflexivity. }
      split; [apply st_ext_refl|]. split; [exact Hok|]. split; [exact Hin|].
      intros [Hst | [Hst _]]; [exact Hst|]. rewrite Hst in Hs. discriminate Hs.
  Qed.

  Lemma inv_imm V l : IM l = true -> Inv V (EOp (OImm l)).
  Proof.
    intros Hl Vl st Hext Hok. destruct (imm_low Vl l st Hl Hok) as [st' [L [Hx [Hok' [Hin _]]]]].
    assert (Hnl : ~ islit (mkpv (PVarL l) (imm_ty l) (KVar l) [])) by (unfold islit; cbn; auto).
    eexists _, st'.
    split; [exact L|]. split; [exact Hx|]. split; [exact Hok'|].
    split. { apply (goodpv_i _ (imm_signed l) 32%N); [exact okw32 | apply ity_int | exact I | reflexivity]. }
    split; [apply nolit_litinv; exact Hnl|]. split; [intros H; contradiction|].
    intros _ _ cs ms [_ [_ [_ [_ [_ [Hcn _]]]]]] Himm.
    exists (VBv 32 (cimm cs l)). split.
    - split; [exact (Himm l Hl Hin) | apply shape_int; exact (Hcn l Hl)].
    - intros fuel cs' cv Hce _. destruct fuel as [|k]; [discriminate|].
      cbn [ceval operand_lval read_lval] in Hce. change ("imm:" ++ l)%string with ("imm:" +++ l) in Hce.
      cbn [pv_ty cval_of imm_ty vt_sg ty_int ty_h]. unfold cimm, imm_signed.
      destruct (lookup ("imm:" +++ l) (cs_vars cs)) as [[t0 [v0|]]|]; injection Hce as <- <-; split; reflexivity.
  Qed.

  Lemma inv_cast V ts sg w e : cast_ty ts sg w -> Inv V e -> Inv V (ECast ts e).
  Proof.
    intros Hts IH Vl st Hext Hok.
    destruct (IH Vl st Hext Hok) as [pa [st1 [L1 [S1 [K1 [Ga [La [Ll Hsem]]]]]]]].
    destruct (lower_cast_ok ts sg w pa st1 Hts Ga) as [r [R1 [R2 [R3 R4]]]].
    exists r, st1.
    split. { cbn [lower_expr]. (erewrite bind_OK by exact L1). exact R1. }
    split. { exact S1. }
    split. { exact K1. }
    split. { exact R2. }
    split. { intros v b Hk. rewrite (R3 v b Hk) in Hk |- *. apply (La v b Hk). }
    split. { intros Hi. cbn [litlike]. apply Ll. unfold islit in *. destruct (pv_kind r) eqn:Hk; try contradiction. rewrite <- (R3 _ _ eq_refl). rewrite Hk. exact I. }
    intros HR Hrem cs ms Hrel Himm. destruct (Hsem HR Hrem cs ms Hrel Himm) as [va [Sa Hc]].
    destruct (R4 ms va Sa) as [vr [Sr Cr]]. exists vr. split; [exact Sr|].
    intros fuel cs' cv Hce Harms. destruct fuel as [|k]; [discriminate|].
    cbn [ceval] in Hce.
    destruct (cast_ty_ok ts sg w st Hts) as [_ [Rc _]]. rewrite Rc in Hce.
    destruct (ceval E csub xi k cs e) as [[s1 v1]|] eqn:Ece; [|discriminate].
    destruct (Hc k s1 v1 Ece Harms) as [-> ->]. injection Hce as <- <-. auto.
  Qed.

  Lemma inv_un V u e : (u = UNot \/ u = UMinus \/ u = ULNot) -> Inv V e -> Inv V (EUn u e).
  Proof.
    intros Hu IH Vl st Hext Hok.
    destruct (IH Vl st Hext Hok) as [pa [st1 [L1 [S1 [K1 [Ga [La [Ll Hsem]]]]]]]].
    assert (exists r, lower_unop cfg u (IPure pa) st1 = OK (IPure r, st1) /\ goodpv r /\ litinv r /\
              (islit r -> litlike (EUn u e) = true) /\
              forall ms va, sem ms pa va ->
                exists vr, sem ms r vr /\ c_unop u (cval_of (pv_ty pa) va) = Some (cval_of (pv_ty r) vr))
      as [r [R1 [R2 [R3 [R4 R5]]]]].
    { assert (Hu' : (u = UNot \/ u = UMinus) \/ u = ULNot) by tauto. destruct Hu' as [Hu' | ->].
      - destruct (islit_dec pa) as [Hi | Hn].
        + unfold islit in Hi. destruct (pv_kind pa) eqn:Hk; try contradiction.
          destruct (lower_unop_lit_ok u pa st1 _ _ Hu' La Hk) as [r [Q1 [Q2 [Q3 Q4]]]].
          exists r. repeat (split; [assumption|]). split; [|exact Q4].
          intros _. assert (Hl : litlike e = true) by (apply Ll; unfold islit; rewrite Hk; exact I).
          destruct Hu' as [-> | ->]; exact Hl.
        + destruct (lower_unop_ok u pa st1 Hu' Ga Hn) as [r [Q1 [Q2 [Q3 Q4]]]].
          exists r. split; [assumption|]. split; [assumption|]. split; [apply nolit_litinv; auto|]. split; [intros; contradiction | exact Q4].
      - destruct (lower_lnot_ok pa st1 Ga) as [r [Q1 [Q2 [Q3 Q4]]]].
        exists r. split; [assumption|]. split; [assumption|]. split; [apply nolit_litinv; auto|]. split; [intros; contradiction | exact Q4]. }
    exists r, st1.
    split. { cbn [lower_expr]. (erewrite bind_OK by exact L1). exact R1. }
    repeat (split; [assumption|]).
    intros HR Hrem cs ms Hrel Himm. destruct (Hsem HR Hrem cs ms Hrel Himm) as [va [Sa Hc]].
    destruct (R5 ms va Sa) as [vr [Sr Cr]]. exists vr. split; [exact Sr|].
    intros fuel cs' cv Hce Harms. destruct fuel as [|k]; [discriminate|].
    cbn [ceval] in Hce.
    destruct (ceval E csub xi k cs e) as [[s1 v1]|] eqn:Ece; [|discriminate].
    destruct (Hc k s1 v1 Ece Harms) as [-> ->]. rewrite Cr in Hce. cbn in Hce. injection Hce as <- <-. auto.
  Qed.

  Lemma ceval_bin_strict b k s x y : b <> Ast.BLAnd -> b <> Ast.BLOr ->
    ceval E csub xi (S k) s (EBin b x y) =
    match ceval E csub xi k s x with
    | Some (s1, vx) => match ceval E csub xi k s1 y with
                       | Some (s2, vy) => option_map (fun r => (s2, r)) (c_binop b vx vy)
                       | None => None end
    | None => None end.
  Proof. intros H1 H2. destruct b; try reflexivity; congruence. Qed.

  (* every strict binary operator: from the operator lemma to the invariant *)
  Lemma inv_bin_strict V b l r : b <> Ast.BLAnd -> b <> Ast.BLOr ->
    Inv V l -> Inv V r ->
    (forall pl pr st, goodpv pl -> goodpv pr -> litinv pl -> litinv pr ->
       (islit pl -> litlike l = true) -> (islit pr -> litlike r = true) ->
       exists q, lower_binop cfg b (IPure pl) (IPure pr) st = OK (IPure q, st) /\ goodpv q /\ litinv q /\
         (islit q -> litlike (EBin b l r) = true) /\
         forall ms va vc, sem ms pl va -> sem ms pr vc ->
           exists vr, sem ms q vr /\
             forall cv, c_binop b (cval_of (pv_ty pl) va) (cval_of (pv_ty pr) vc) = Some cv -> cv = cval_of (pv_ty q) vr) ->
    Inv V (EBin b l r).
  Proof.
    intros Hb1 Hb2 IHl IHr Hop Vl st Hext Hok.
    destruct (IHl Vl st Hext Hok) as [pl [st1 [L1 [S1 [K1 [Gl [Il [Ll Hseml]]]]]]]].
    destruct (IHr Vl st1 Hext K1) as [pr [st2 [L2 [S2 [K2 [Gr [Ir [Lr Hsemr]]]]]]]].
    destruct (Hop pl pr st2 Gl Gr Il Ir Ll Lr) as [q [Q1 [Q2 [Q3 [Q5 Q4]]]]].
    exists q, st2.
    split. { cbn [lower_expr]. (erewrite bind_OK by exact L1). (erewrite bind_OK by exact L2). exact Q1. }
    split. { eapply st_ext_trans; eauto. }
    split. { exact K2. }
    split. { exact Q2. }
    split. { exact Q3. }
    split. { exact Q5. }
    intros HR Hrem cs ms Hrel Himm.
    destruct (semok_mono _ _ _ _ _ S2 Hseml HR Hrem cs ms Hrel Himm) as [va [Sa Hca]].
    destruct (Hsemr HR Hrem cs ms Hrel Himm) as [vc [Sc Hcc]].
    destruct (Q4 ms va vc Sa Sc) as [vr [Sr Cr]]. exists vr. split; [exact Sr|].
    intros fuel cs' cv Hce Harms. destruct fuel as [|k]; [discriminate|].
    rewrite ceval_bin_strict in Hce by auto. pose proof I as Ha1; pose proof I as Ha2.
    destruct (ceval E csub xi k cs l) as [[s1 v1]|] eqn:Ece1; [|discriminate].
    destruct (Hca k s1 v1 Ece1 Ha1) as [-> ->].
    destruct (ceval E csub xi k cs r) as [[s2 v2]|] eqn:Ece2; [|discriminate].
    destruct (Hcc k s2 v2 Ece2 Ha2) as [-> ->].
    destruct (c_binop b _ _) as [res|] eqn:Eres; [|discriminate]. cbn in Hce. injection Hce as <- <-.
    split; [reflexivity|]. apply Cr. reflexivity.
  Qed.

  Lemma weaken_op {b} {ca cc : cval} {x : cval} : c_binop b ca cc = Some x -> forall cv, c_binop b ca cc = Some cv -> cv = x.
  Proof. intros H cv H'. congruence. Qed.

  (* + - * and the comparisons: folded at compile time when both operands are literals *)
  Lemma lower_fold_ok b a c st : is_folding_op b -> goodpv a -> goodpv c -> ~ (islit a /\ islit c) ->
    exists r, lower_binop cfg b (IPure a) (IPure c) st = OK (IPure r, st) /\ goodpv r /\ ~ islit r /\
      forall ms va vc, sem ms a va -> sem ms c vc ->
        exists vr, sem ms r vr /\
          c_binop b (cval_of (pv_ty a) va) (cval_of (pv_ty c) vc) = Some (cval_of (pv_ty r) vr).
  Proof. intros [Hb | [Hb | [Hb | Hb]]]; [apply lower_arith_ok | apply lower_arith_ok | apply lower_arith_ok | apply lower_cmp_ok]; tauto. Qed.
  Lemma lower_fold_lit_ok b a c st va ba vb bb : is_folding_op b ->
    litinv a -> litinv c -> pv_kind a = KLit va ba -> pv_kind c = KLit vb bb ->
    exists r, lower_binop cfg b (IPure a) (IPure c) st = OK (IPure r, st) /\ goodpv r /\ litinv r /\
      forall ms ila ilc, sem ms a ila -> sem ms c ilc ->
        exists vr, sem ms r vr /\
          c_binop b (cval_of (pv_ty a) ila) (cval_of (pv_ty c) ilc) = Some (cval_of (pv_ty r) vr).
  Proof.
    intros [Hb | [Hb | [Hb | Hb]]]; [apply lower_arith_lit_ok | apply lower_arith_lit_ok | apply lower_arith_lit_ok | apply lower_cmp_lit_ok]; tauto.
  Qed.

  Lemma inv_fold V b l r : is_folding_op b -> Inv V l -> Inv V r -> Inv V (EBin b l r).
  Proof.
    intros Hb IHl IHr.
    assert (b <> Ast.BLAnd /\ b <> Ast.BLOr) as [N1 N2].
    { unfold is_folding_op, is_cmp in Hb. split; intros ->; intuition discriminate. }
    assert (Hfb : folding_opb b = true).
    { unfold is_folding_op, is_cmp in Hb. intuition (subst; reflexivity). }
    apply inv_bin_strict; auto.
    intros pl pr st Gl Gr Il Ir Ll Lr.
    assert (Hdec : (islit pl /\ islit pr) \/ ~ (islit pl /\ islit pr)) by (destruct (islit_dec pl), (islit_dec pr); tauto).
    destruct Hdec as [[Hil Hir] | Hn].
    - assert (Hlit : litlike (EBin b l r) = true) by (cbn [litlike]; rewrite Hfb, (Ll Hil), (Lr Hir); reflexivity).
      unfold islit in Hil, Hir. destruct (pv_kind pl) eqn:Hkl; try contradiction. destruct (pv_kind pr) eqn:Hkr; try contradiction.
      destruct (lower_fold_lit_ok b pl pr st _ _ _ _ Hb Il Ir Hkl Hkr) as [q [Q1 [Q2 [Q3 Q4]]]]. exists q.
      split; [exact Q1|]. split; [exact Q2|]. split; [exact Q3|]. split; [intros _; exact Hlit|].
      intros ms va vc Sa Sc. destruct (Q4 ms va vc Sa Sc) as [vr [Sr Cr]]. exists vr. split; [exact Sr | exact (weaken_op Cr)].
    - destruct (lower_fold_ok b pl pr st Hb Gl Gr Hn) as [q [Q1 [Q2 [Q3 Q4]]]]. exists q.
      split; [exact Q1|]. split; [exact Q2|]. split; [apply nolit_litinv; exact Q3|]. split; [intros; contradiction|].
      intros ms va vc Sa Sc. destruct (Q4 ms va vc Sa Sc) as [vr [Sr Cr]]. exists vr. split; [exact Sr | exact (weaken_op Cr)].
  Qed.

  Lemma inv_bitshift V b l r : (b = Ast.BAnd \/ b = Ast.BOr \/ b = Ast.BXor \/ b = Ast.BShl \/ b = Ast.BShr) ->
    Inv V l -> Inv V r -> Inv V (EBin b l r).
  Proof.
    intros Hb IHl IHr.
    assert (b <> Ast.BLAnd /\ b <> Ast.BLOr) as [N1 N2] by (split; intros ->; intuition discriminate).
    apply inv_bin_strict; auto.
    intros pl pr st Gl Gr _ _ _ _.
    destruct Hb as [Hb | [Hb | [Hb | Hb]]].
    1-3: destruct (lower_bit_ok b pl pr st ltac:(tauto) Gl Gr) as [q [Q1 [Q2 [Q3 Q4]]]]; exists q;
         (split; [assumption|]); (split; [assumption|]); (split; [apply nolit_litinv; assumption|]); (split; [intros; contradiction|]);
         intros ms va vc Sa Sc; destruct (Q4 ms va vc Sa Sc) as [vr [Sr Cr]]; exists vr; split; [exact Sr | exact (weaken_op Cr)].
    destruct (lower_shift_ok b pl pr st Hb Gl Gr) as [q [Q1 [Q2 [Q3 Q4]]]]; exists q;
         (split; [assumption|]); (split; [assumption|]); (split; [apply nolit_litinv; assumption|]); (split; [intros; contradiction|]); exact Q4.
  Qed.

  Lemma inv_logic V b l r : (b = Ast.BLAnd \/ b = Ast.BLOr) -> Inv V l -> Inv V r -> Inv V (EBin b l r).
  Proof.
    intros Hb IHl IHr Vl st Hext Hok.
    destruct (IHl Vl st Hext Hok) as [pl [st1 [L1 [S1 [K1 [Gl [_ [_ Hseml]]]]]]]].
    destruct (IHr Vl st1 Hext K1) as [pr [st2 [L2 [S2 [K2 [Gr [_ [_ Hsemr]]]]]]]].
    destruct (lower_logic_ok b pl pr st2 Hb Gl Gr) as [q [Q1 [Q2 [Q3 Q4]]]].
    exists q, st2.
    split. { cbn [lower_expr]. (erewrite bind_OK by exact L1). (erewrite bind_OK by exact L2). exact Q1. }
    split. { eapply st_ext_trans; eauto. }
    split. { exact K2. }
    split. { exact Q2. }
    split. { apply nolit_litinv; auto. }
    split. { intros; contradiction. }
    intros HR Hrem cs ms Hrel Himm.
    destruct (semok_mono _ _ _ _ _ S2 Hseml HR Hrem cs ms Hrel Himm) as [va [Sa Hca]].
    destruct (Hsemr HR Hrem cs ms Hrel Himm) as [vc [Sc Hcc]].
    pose proof (Q4 ms va vc Sa Sc) as Sr. eexists. split; [exact Sr|].
    assert (Tq : pv_ty q = ty_bool).
    { destruct Sr as [_ Sh]. destruct Q2 as [[T _] | [s0 [w0 [_ [T _]]]]]; [exact T|]. rewrite T in Sh. destruct Sh as [z [Hz _]]. discriminate. }
    rewrite Tq.
    intros fuel cs' cv Hce Harms. destruct fuel as [|k]; [discriminate|].
    pose proof I as Ha1; pose proof I as Ha2.
    destruct Hb as [-> | ->]; cbn [ceval] in Hce;
    (destruct (ceval E csub xi k cs l) as [[s1 v1]|] eqn:Ece1; [|discriminate]);
    destruct (Hca k s1 v1 Ece1 Ha1) as [-> ->]; unfold truth; cbn [cval_of];
    destruct (snd (cval_of (pv_ty pl) va) =? 0); cbn [negb andb orb] in *;
    try (injection Hce as <- <-; split; reflexivity);
    (destruct (ceval E csub xi k cs r) as [[s2 v2]|] eqn:Ece2; [|discriminate]);
    destruct (Hcc k s2 v2 Ece2 Ha2) as [-> ->];
    destruct (snd (cval_of (pv_ty pr) vc) =? 0); cbn [negb] in *; injection Hce as <- <-; split; reflexivity.
  Qed.

  Lemma inv_cond V c t f : Inv V c -> Inv V t -> Inv V f -> Inv V (ECond c t f).
  Proof.
    intros IHc IHt IHf Vl st Hext Hok.
    destruct (IHc Vl st Hext Hok) as [pc [st1 [L1 [S1 [K1 [Gc [Lic [Lc Hsemc]]]]]]]].
    destruct (IHt Vl st1 Hext K1) as [pt [st2 [L2 [S2 [K2 [Gt [Lit [_ Hsemt]]]]]]]].
    destruct (IHf Vl st2 Hext K2) as [pf [st3 [L3 [S3 [K3 [Gf [Lif [_ Hsemf]]]]]]]].
    assert (Hq : exists q, cond_tail (IPure pc) (IPure pt) (IPure pf) st3 = OK (IPure q, st3) /\ goodpv q /\ litinv q /\
                   (islit q -> litlike (ECond c t f) = true) /\
                   forall ms vc vt vf, sem ms pc vc -> sem ms pt vt -> sem ms pf vf ->
                     exists vr, sem ms q vr /\
                       cval_of (pv_ty q) vr =
                         conv (arith_ty (cty_of (pv_ty pt)) (cty_of (pv_ty pf)))
                              (if truth (cval_of (pv_ty pc) vc) then cval_of (pv_ty pt) vt else cval_of (pv_ty pf) vf)).
    { destruct (islit_dec pc) as [Hi | Hn].
      - destruct (cond_tail_lit_ok pc pt pf st3 Gc Gt Gf Lic Lit Lif Hi) as [q [Q1 [Q2 [Q3 Q4]]]].
        exists q. split; [exact Q1|]. split; [exact Q2|]. split; [exact Q3|]. split; [|exact Q4].
        intros _. cbn [litlike]. exact (Lc Hi).
      - destruct (cond_tail_ok pc pt pf st3 Gc Gt Gf Hn) as [q [Q1 [Q2 [Q3 Q4]]]].
        exists q. split; [exact Q1|]. split; [exact Q2|]. split; [apply nolit_litinv; exact Q3|]. split; [|exact Q4].
        intros Hi. contradiction. }
    destruct Hq as [q [Q1 [Q2 [Q3 [Q5 Q4]]]]].
    exists q, st3.
    split. { rewrite lower_expr_cond. (erewrite bind_OK by exact L1). (erewrite bind_OK by exact L2). (erewrite bind_OK by exact L3). exact Q1. }
    split. { eapply st_ext_trans; [|exact S3]. eapply st_ext_trans; eauto. }
    split. { exact K3. }
    split. { exact Q2. }
    split. { exact Q3. }
    split. { exact Q5. }
    intros HR Hrem cs ms Hrel Himm.
    destruct (semok_mono _ _ _ _ _ (st_ext_trans _ _ _ S2 S3) Hsemc HR Hrem cs ms Hrel Himm) as [vc [Sc Hcc]].
    destruct (semok_mono _ _ _ _ _ S3 Hsemt HR Hrem cs ms Hrel Himm) as [vt [St Hct]].
    destruct (Hsemf HR Hrem cs ms Hrel Himm) as [vf [Sf Hcf]].
    destruct (Q4 ms vc vt vf Sc St Sf) as [vr [Sr Cr]]. exists vr. split; [exact Sr|].
    intros fuel cs' cv Hce Harms. destruct fuel as [|k]; [discriminate|].
    cbn [ceval] in Hce. pose proof I as Ha1; pose proof I as Ha2; pose proof I as Ha3.
    destruct (ceval E csub xi k cs c) as [[s1 v1]|] eqn:Ece1; [|discriminate].
    destruct (Hcc k s1 v1 Ece1 Ha1) as [-> ->].
    destruct (ceval E csub xi k cs t) as [[s2 v2]|] eqn:Ece2; destruct (ceval E csub xi k cs f) as [[s3 v3]|] eqn:Ece3.
    - destruct (Hct k s2 v2 Ece2 Ha2) as [-> ->]. destruct (Hcf k s3 v3 Ece3 Ha3) as [-> ->].
      rewrite Cr. rewrite (fst_cval_of _ _ (proj2 St)), (fst_cval_of _ _ (proj2 Sf)) in Hce. unfold truth.
      destruct (negb (snd (cval_of (pv_ty pc) vc) =? 0)); injection Hce as <- <-; auto.
    - discriminate.
    - discriminate.
    - discriminate.
  Qed.

  Lemma lst_ok_touched V st : lst_ok V st -> lst_ok V (touched st).
  Proof. intros H. eapply lst_ok_regs; [exact H | reflexivity | reflexivity | apply H]. Qed.

  Definition load_tail (sg : bool) (w : N) (items : list item) : M item :=
    match items with
    | [IPure va0] => do va <- addr_of cfg va0; do _ <- touch; ret (IPure (mkpv (PLoad w (rd va)) (ty_tok sg w) KExec (pv_tmps va)))
    | _ => fail "mem_load address"
    end.
  Lemma lower_expr_load sg w args : lower_expr cfg (ELoad sg w args) = (do items <- lower_exprs cfg args; load_tail sg w items).
  Proof. reflexivity. Qed.
  Lemma lower_exprs_one a : lower_exprs cfg (ECons a ENil) = (do i <- lower_expr cfg a; do r <- ret []; ret (i :: r)).
  Proof. reflexivity. Qed.
  Lemma lower_expr_cast t a : lower_expr cfg (ECast t a) = (do ia <- lower_expr cfg a; lower_cast cfg t ia).
  Proof. reflexivity. Qed.

  Lemma inv_cast_load V ts sg w lsg lw a : cast_ty ts sg w -> okw lw -> Inv V a -> Inv V (ECast ts (ELoad lsg lw (ECons a ENil))).
  Proof.
    intros Hts Hlw IH Vl st Hext Hok.
    destruct (IH Vl st Hext Hok) as [pa [st1 [L1 [S1 [K1 [Ga [_ [_ Hsem]]]]]]]].
    destruct (addr_ok pa st1 Ga) as [va [A1 [At A2]]].
    destruct (cast_ty_ok ts sg w (touched st1) Hts) as [R1 [Rc Hw]].
    destruct (init_a_cast_tok_ok sg w lsg lw (PLoad lw (rd va)) KExec (touched st1) Hw Hlw) as [r [C1 [C2 [C3 [C4 C5]]]]].
    exists r, (touched st1).
    split.
    { rewrite lower_expr_cast, lower_expr_load, lower_exprs_one.
      unfold bind at 1. unfold bind at 1. unfold bind at 1. rewrite L1.
      unfold bind at 1. unfold ret at 1. unfold ret at 1. cbv beta iota.
      unfold load_tail. unfold bind at 1. rewrite A1. unfold bind at 1. rewrite touch_eq. unfold ret at 1. rewrite At.
      unfold lower_cast. (erewrite bind_OK by exact R1). (erewrite bind_OK by reflexivity).
      unfold ty_eq. cbn [pv_ty is_numeric ty_tok ty_int ty_h vt_void vt_ext negb andb].
      (erewrite bind_OK by reflexivity).
      assert (vtype_eqb (ty_tok lsg lw) (ty_int sg w) = false) as -> by reflexivity.
      (erewrite bind_OK by exact C1). reflexivity. }
    split. { eapply st_ext_trans; [exact S1 | apply st_ext_touched]. }
    split. { apply lst_ok_touched. exact K1. }
    split. { exact C2. }
    assert (Hnl : ~ islit r) by (unfold islit; rewrite C4; auto).
    split. { apply nolit_litinv. exact Hnl. }
    split. { intros Hi. contradiction. }
    intros HR Hrem cs ms Hrel Himm.
    destruct (semok_mono _ _ _ _ _ (st_ext_touched st1) Hsem HR Hrem cs ms Hrel Himm) as [ila [Sa Hca]].
    destruct (A2 ms ila Sa) as [w1 [x [Ea Cx]]].
    set (z := wrap lw (read_bytes ms x (N.to_nat (lw / 8)))).
    assert (Hz : 0 <= z < pow2 lw) by apply wrap_range.
    assert (El : eval rw ms [] (fin (PLoad lw (rd va))) = Some (VBv lw z)).
    { cbn [fin_pure eval]. unfold rd. rewrite Ea. reflexivity. }
    destruct (C5 ms z El Hz) as [vr [Sr Cr]]. exists vr. split; [exact Sr|].
    intros fuel cs' cv Hce _. destruct fuel as [|[|k]]; [discriminate Hce| |].
    - cbn [ceval] in Hce. rewrite Rc in Hce. discriminate Hce.
    - cbn [ceval] in Hce. rewrite Rc in Hce.
      destruct (ceval E csub xi k cs a) as [[s1 v1]|] eqn:Ece; [|discriminate Hce].
      destruct (Hca k s1 v1 Ece I) as [-> ->]. injection Hce as <- <-. split; [reflexivity|].
      rewrite Cr. unfold conv at 1, mkval at 1 in Cx. cbn [snd] in Cx. rewrite Cx. destruct Hrel as [_ [_ [_ [_ [_ [_ [Hmem [Hmem0 _]]]]]]]].
      rewrite (read_bytes_rel E cs ms Hmem Hmem0). reflexivity.
  Qed.

  Definition mac_tail (m : string) (items : list item) : M item :=
    match find_mac cfg m with
    | None => fail "Macro is not defined"
    | Some mg =>
        do '(al, tm) <- lower_args cfg items (mac_params mg);
        do _ <- touch;
        do ps <- (fix go (l : list arg) : M (list pure) :=
                    match l with [] => ret [] | APure p :: t => do r <- go t; ret (p :: r)
                               | ARaw s :: t => do r <- go t; ret (PRaw s :: r)
                               | AOp (RParam h) :: t => do r <- go t; ret (PRaw ("$op:" +++ substring 5 (String.length h - 5) h) :: r)
                               | AOp _ :: t => fail "macro operand argument" end) al;
        ret (IPure (mkpv (PApp (mac_rz mg) ps) (mac_ret mg) KMacro tm))
    end.
  Lemma lower_expr_macro m args : lower_expr cfg (EMacro m args) = (do items <- lower_exprs cfg args; mac_tail m items).
  Proof. reflexivity. Qed.
  Lemma lower_exprs_cons a t : lower_exprs cfg (ECons a t) = (do i <- lower_expr cfg a; do r <- lower_exprs cfg t; ret (i :: r)).
  Proof. reflexivity. Qed.
  Lemma lower_exprs_nil : lower_exprs cfg ENil = ret [].
  Proof. reflexivity. Qed.

  (* the C values of a list of lowered arguments, and CSem's evaluation of an argument list (the local fixpoint of ceval) *)
  Definition cvals (ps : list pval) (vs : list val) : list cval :=
    map (fun pv => cval_of (pv_ty (fst pv)) (snd pv)) (combine ps vs).
  Fixpoint cevals (k : nat) (s : cstate) (l : cexprs) : option (cstate * list cval) :=
    match l with
    | ENil => Some (s, [])
    | ECons a t => match ceval E csub xi k s a with
                   | Some (s1, v) => match cevals k s1 t with Some (s2, r) => Some (s2, v :: r) | None => None end
                   | None => None end
    end.
  Lemma ceval_macro k cs m args :
    ceval E csub xi (S k) cs (EMacro m args) =
    match cevals k cs args with Some (s1, vs) => option_map (fun r => (s1, r)) (c_macro m vs) | None => None end.
  Proof.
    cbn [ceval]. match goal with |- match ?f cs args with _ => _ end = _ => assert (H : forall l s, f s l = cevals k s l) end.
    { induction l as [|a t IH]; intros s; cbn [cevals]; [reflexivity|].
      destruct (ceval E csub xi k s a) as [[s1 v]|]; [rewrite IH|]; reflexivity. }
    rewrite H. reflexivity.
  Qed.

  (* the invariant for an argument list: the arguments are lowered left to right, each within the fragment *)
  Definition InvL (V : list (string * option vtype)) (args : cexprs) : Prop :=
    forall Vl st, vext V Vl -> lst_ok Vl st ->
      exists ps st', lower_exprs cfg args st = OK (map IPure ps, st') /\ st_ext st st' /\ lst_ok Vl st' /\ Forall goodpv ps /\
        forall st2, st_ext st' st2 -> regs_le (st_regs st2) R -> norem rem ->
          forall cs ms, rel V cs ms -> imms_done (st_imms st2) cs ms ->
            exists vs, Forall2 (sem ms) ps vs /\
              forall fuel cs' cvs, cevals fuel cs args = Some (cs', cvs) -> cs' = cs /\ cvs = cvals ps vs.
  Lemma invl_nil V : InvL V ENil.
  Proof.
    intros Vl st _ Hok. exists [], st. split; [reflexivity|]. split; [apply st_ext_refl|]. split; [exact Hok|]. split; [constructor|].
    intros st2 _ _ _ cs ms _ _. exists []. split; [constructor|]. intros fuel cs' cvs H. injection H as <- <-. auto.
  Qed.
  Lemma invl_cons V e t : Inv V e -> InvL V t -> InvL V (ECons e t).
  Proof.
    intros IHe IHt Vl st Hext Hok.
    destruct (IHe Vl st Hext Hok) as [p [st1 [L1 [S1 [K1 [G1 [_ [_ Hsem1]]]]]]]].
    destruct (IHt Vl st1 Hext K1) as [ps [st2 [L2 [S2 [K2 [G2 Hsem2]]]]]].
    exists (p :: ps), st2.
    split. { rewrite lower_exprs_cons. unfold bind. rewrite L1, L2. reflexivity. }
    split; [eapply st_ext_trans; eassumption|]. split; [exact K2|]. split; [constructor; assumption|].
    intros st3 S3 HR Hrem cs ms Hrel Himm.
    destruct (semok_mono _ _ _ st1 st3 (st_ext_trans _ _ _ S2 S3) Hsem1 HR Hrem cs ms Hrel Himm) as [v [Sv Hcv]].
    destruct (Hsem2 st3 S3 HR Hrem cs ms Hrel Himm) as [vs [Svs Hcvs]].
    exists (v :: vs). split; [constructor; assumption|].
    intros fuel cs' cvs H. cbn [cevals] in H.
    destruct (ceval E csub xi fuel cs e) as [[s1 v1]|] eqn:E1; [|discriminate H]. destruct (Hcv fuel s1 v1 E1 I) as [-> ->].
    destruct (cevals fuel cs t) as [[s2 r]|] eqn:E2; [|discriminate H]. destruct (Hcvs fuel s2 r E2) as [-> ->].
    injection H as <- <-. split; reflexivity.
  Qed.

  Fixpoint argvals (pts : list vtype) (cvs : list cval) : list val :=
    match pts, cvs with
    | pt :: pts, c :: cvs => VBv (vt_w pt) (snd (conv (vt_sg pt, vt_w pt) c)) :: argvals pts cvs
    | _, _ => []
    end.

  Lemma lower_args_pure : forall ps pts st, Forall goodpv ps -> Forall int_ptype pts -> List.length ps = List.length pts ->
    exists ps', lower_args cfg (map IPure ps) pts st = OK ((map (fun p => APure (rd p)) ps', []), st) /\
      forall ms vs, Forall2 (sem ms) ps vs ->
        Forall2 (fun p' v' => eval rw ms [] (fin (rd p')) = Some v') ps' (argvals pts (cvals ps vs)).
  Proof.
    induction ps as [|p ps IH]; intros pts st Hg Hp Hl.
    - destruct pts; [|discriminate Hl]. exists []. split; [reflexivity|]. intros ms vs H. inversion H. constructor.
    - destruct pts as [|pt pts]; [discriminate Hl|]. injection Hl as Hl.
      inversion Hg as [|? ? Hgp Hgps]; subst. inversion Hp as [|? ? Hpt Hpts]; subst.
      destruct (IH pts st Hgps Hpts Hl) as [rest [Lr Sr]]. destruct Hpt as [sg [w [Hw ->]]].
      destruct (lower_args_cons p _ sg w _ _ _ st Hw Hgp Lr) as [p' [L [T S]]]. rewrite T in L.
      exists (p' :: rest). split; [exact L|].
      intros ms vs H. inversion H as [|? v ? vs' Sv Svs]; subst. cbn [cvals combine map argvals fst snd vt_w vt_sg ty_int ty_h].
      constructor; [|exact (Sr ms vs' Svs)].
      destruct (S ms v Sv) as [z [_ [Ez Cz]]]. rewrite Cz. exact Ez.
  Qed.

  Lemma std_macs_int sg : In sg std_macs -> Forall int_ptype (mac_params sg) /\ int_ptype (mac_ret sg).
  Proof.
    assert (H16 : okw 16) by (unfold okw; auto).
    intros H. cbn [std_macs In] in H.
    repeat (destruct H as [<- | H]; [split; [repeat constructor|]; eexists _, _; (split; [|reflexivity]); auto|]). contradiction.
  Qed.

  Lemma mac_tail_ok m sg ps st : find (fun s => String.eqb (mac_name s) m) std_macs = Some sg ->
    Forall goodpv ps -> List.length ps = List.length (mac_params sg) ->
    exists ps', mac_tail m (map IPure ps) st = OK (IPure (mkpv (PApp (mac_rz sg) (map rd ps')) (mac_ret sg) KMacro []), touched st) /\
      forall ms vs, Forall2 (sem ms) ps vs ->
        Forall2 (fun p' v' => eval rw ms [] (fin (rd p')) = Some v') ps' (argvals (mac_params sg) (cvals ps vs)).
  Proof.
    intros Hf Hg Hl. destruct (find_some _ _ Hf) as [Hin Hn]. apply String.eqb_eq in Hn. subst m.
    destruct (lower_args_pure ps (mac_params sg) st Hg (proj1 (std_macs_int sg Hin)) Hl) as [ps' [L S]].
    exists ps'. split; [|exact S].
    unfold mac_tail. rewrite (find_mac_std sg Hin). unfold bind at 1. rewrite L. cbv beta iota.
    unfold bind at 1. rewrite touch_eq. cbv beta iota.
    match goal with |- bind (?go _) _ _ = _ =>
      assert (Hgo : forall l s, go (map (fun p => APure (rd p)) l) s = OK (map rd l, s)) end.
    { induction l as [|q l IHl]; intros s; cbn [map]; [reflexivity|]. unfold bind. rewrite IHl. reflexivity. }
    unfold bind. rewrite Hgo. reflexivity.
  Qed.

  Lemma eval_app {A} ms h (f : A -> pure) l vs : Forall2 (fun x v => eval rw ms [] (f x) = Some v) l vs ->
    eval rw ms [] (PApp h (map f l)) = app_sem h vs.
  Proof.
    intros H. cbn [eval]. change (app_sem h vs) with (app_sem h (rev [] ++ vs)). generalize (@nil val) as acc.
    induction H as [|x v l vs Hx _ IH]; intros acc; cbn [map]; cbv beta iota; [rewrite app_nil_r; reflexivity|].
    rewrite Hx, IH. cbn [rev]. rewrite <- app_assoc. reflexivity.
  Qed.

  Lemma std_macs_agree sg cvs : In sg std_macs -> List.length cvs = List.length (mac_params sg) ->
    exists z, app_sem (mac_rz sg) (argvals (mac_params sg) cvs) = Some (VBv (vt_w (mac_ret sg)) z) /\
      0 <= z < pow2 (vt_w (mac_ret sg)) /\
      forall r, c_macro (mac_name sg) cvs = Some r -> r = ((vt_sg (mac_ret sg), vt_w (mac_ret sg)), z).
  Proof.
    intros H Hl. cbn [std_macs In] in H.
    repeat (destruct H as [<- | H];
            [destruct cvs as [|c1 [|c2 [|c3 [|c4 [|c5 cvs]]]]]; try discriminate Hl;
             cbn [mac_rz mac_params mac_ret mac_name argvals vt_w vt_sg ty_int ty_h]|]); [..|contradiction].
    - exact (mac_bswap 16 _ _ (or_introl eq_refl) c1).
    - exact (mac_bswap 32 _ _ (or_intror (or_introl eq_refl)) c1).
    - exact (mac_bswap 64 _ _ (or_intror (or_intror eq_refl)) c1).
    - exact (mac_extract 64 _ _ (or_intror eq_refl) c1 c2 c3).
    - exact (mac_sextract64 c1 c2 c3).
    - exact (mac_deposit 64 _ _ (or_intror eq_refl) c1 c2 c3 c4).
    - exact (mac_deposit 32 _ _ (or_introl eq_refl) c1 c2 c3 c4).
    - exact (mac_extract 32 _ _ (or_introl eq_refl) c1 c2 c3).
  Qed.

  Lemma cvals_length ps vs ms : Forall2 (sem ms) ps vs -> List.length (cvals ps vs) = List.length ps.
  Proof.
    intros H. induction H as [|p v ps vs _ _ IH]; [reflexivity|].
    unfold cvals in *. cbn [combine map List.length]. rewrite IH. reflexivity.
  Qed.

  Lemma goodpv_mac tm sg w : okw w -> goodpv (mkpv tm (ty_int sg w) KMacro []) /\ ~ islit (mkpv tm (ty_int sg w) KMacro []).
  Proof. intros Hw. split; [right; exists sg, w; gp | unfold islit; cbn; auto]. Qed.

  Lemma inv_mac V m sg args : find (fun s => String.eqb (mac_name s) m) std_macs = Some sg ->
    List.length (exprs_to_list args) = List.length (mac_params sg) -> InvL V args -> Inv V (EMacro m args).
  Proof.
    intros Hf Hlen IHa Vl st Hext Hok.
    destruct (find_some _ _ Hf) as [Hin Hn]. apply String.eqb_eq in Hn.
    destruct (IHa Vl st Hext Hok) as [ps [st1 [L1 [S1 [K1 [Gs Hsem]]]]]].
    assert (Hlps : List.length ps = List.length (mac_params sg)).
    { rewrite <- Hlen. clear - L1. revert ps st st1 L1. induction args as [|a t IH]; intros ps st st1 L1.
      - cbn in L1. injection L1 as L1 _. destruct ps; [reflexivity | discriminate L1].
      - rewrite lower_exprs_cons in L1. unfold bind in L1.
        destruct (lower_expr cfg a st) as [[i s1]|]; [|discriminate L1].
        destruct (lower_exprs cfg t s1) as [[r s2]|] eqn:Et; [|discriminate L1]. injection L1 as L1 <-.
        destruct ps as [|p ps]; [discriminate L1|]. injection L1 as _ ->. cbn [exprs_to_list List.length]. f_equal. exact (IH ps s1 s2 Et). }
    destruct (mac_tail_ok m sg ps st1 Hf Gs Hlps) as [ps' [T1 Ax]].
    destruct (proj2 (std_macs_int sg Hin)) as [rsg [rww [Hrw Eret]]].
    destruct (goodpv_mac (PApp (mac_rz sg) (map rd ps')) rsg rww Hrw) as [Gr Nr]. rewrite <- Eret in Gr, Nr.
    eexists _, (touched st1).
    split. { rewrite lower_expr_macro. unfold bind. rewrite L1. exact T1. }
    split. { eapply st_ext_trans; [exact S1 | apply st_ext_touched]. }
    split. { apply lst_ok_touched. exact K1. }
    split; [exact Gr|]. split; [apply nolit_litinv; exact Nr|]. split; [intros Hi; contradiction|].
    intros HR Hrem cs ms Hrel Himm.
    destruct (Hsem (touched st1) (st_ext_touched st1) HR Hrem cs ms Hrel Himm) as [vs [Svs Hcvs]].
    destruct (std_macs_agree sg (cvals ps vs) Hin) as [z [Happ [Rz Hc]]]; [rewrite (cvals_length ps vs ms Svs); exact Hlps|].
    exists (VBv (vt_w (mac_ret sg)) z). split.
    - split; [|cbn [pv_ty]; rewrite Eret; apply shape_int; rewrite Eret in Rz; exact Rz].
      cbn [pv_term fin_pure]. rewrite map_map, (eval_app ms _ (fun p => fin (rd p)) ps' _ (Ax ms vs Svs)). exact Happ.
    - intros fuel cs' cv Hce _. destruct fuel as [|k]; [discriminate Hce|].
      rewrite ceval_macro in Hce.
      destruct (cevals k cs args) as [[s1 cvs]|] eqn:E1; [|discriminate Hce]. destruct (Hcvs k s1 cvs E1) as [-> ->].
      rewrite Hn in Hc. destruct (c_macro m _) as [r|] eqn:Er; [|discriminate Hce]. cbn [option_map] in Hce. injection Hce as <- <-.
      split; [reflexivity|]. rewrite (Hc r eq_refl), Eret. reflexivity.
  Qed.

  Lemma sizeof_ext : In "sizeof" ext_calls.
  Proof. right. left. reflexivity. Qed.

  Lemma lower_expr_sizeof args st p st' : lower_exprs cfg args st = OK ([IPure p], st') -> goodpv p ->
    lower_expr cfg (Ast.ECall "sizeof" args) st =
    OK (IPure (mkpv (PBv true 32 (Z.of_N ((vt_w (pv_ty p) + 7) / 8))) (ty_int true 32) (KLit (Z.of_N ((vt_w (pv_ty p) + 7) / 8)) false) []), st').
  Proof.
    intros H Hg. cbn [lower_expr].
    match goal with |- bind ?m _ _ = _ => change m with (lower_exprs cfg args) end.
    unfold bind at 1. rewrite H.
    change (String.eqb "sizeof" "fatal") with false. change (String.eqb "sizeof" "MEM_STORE0") with false. cbv iota.
    unfold find_sub. cbn [cfg_subs]. rewrite (Hsubs "sizeof" sizeof_ext).
    change (String.eqb "sizeof" "sizeof") with true. cbv iota.
    assert (Hn : is_numeric (pv_ty p) = true /\ vt_tok (pv_ty p) = false).
    { destruct Hg as [[Ht _] | [s0 [w0 [_ [Ht _]]]]]; rewrite Ht; split; reflexivity. }
    unfold bind, need_numeric. rewrite (proj1 Hn), (proj2 Hn). reflexivity.
  Qed.

  (* The compiler folds sizeof(e) to the literal (width of the type it gives e + 7) / 8, typed int (signed, 32 bit).
     CSem has no sizeof: it reads the spelling as a call of a sub-routine `sizeof`, which has no body, so it prescribes no
     value (ceval = None) and the simulation holds vacuously for every expression that contains it.  (C11 6.5.3.4 gives
     sizeof the type size_t, unsigned: an expression in which the signedness of that literal matters would be
     mistranslated; CSem cannot express the difference.) *)
  Lemma inv_sizeof V e : Inv V e -> Inv V (Ast.ECall "sizeof" (ECons e ENil)).
  Proof.
    intros IH Vl st Hext Hok.
    destruct (IH Vl st Hext Hok) as [pa [st1 [L1 [S1 [K1 [Ga _]]]]]].
    set (sz := Z.of_N ((vt_w (pv_ty pa) + 7) / 8)).
    assert (Hsz : 0 <= sz < 2147483648).
    { unfold sz. destruct Ga as [[Ht _] | [s0 [w0 [Hw0 [Ht _]]]]]; rewrite Ht; [vm_compute; split; [discriminate | reflexivity]|].
      cbn [vt_w ty_int ty_h]. okw_cases Hw0; vm_compute; split; try discriminate; reflexivity. }
    exists (mkpv (PBv true 32 sz) (ty_int true 32) (KLit sz false) []), st1.
    split. { apply lower_expr_sizeof; [|exact Ga]. rewrite lower_exprs_cons, lower_exprs_nil. unfold bind. rewrite L1. reflexivity. }
    split; [exact S1|]. split; [exact K1|].
    split. { right. exists true, 32%N. gp. }
    split. { intros v0 b0 Hk. cbn in Hk. injection Hk as <- <-. left. split; [reflexivity|]. exists true, 32%N. cbn [pv_ty pv_term].
             repeat split; auto. apply norm_lit_fits; [auto | lia | apply Z.ltb_lt; exact (proj2 Hsz)]. }
    split. { intros _. reflexivity. }
    intros _ _ cs ms _ _. exists (VBv 32 (wrap 32 sz)). split.
    - split; [reflexivity | apply shape_int; apply wrap_range].
    - intros fuel cs' cv Hce _. destruct fuel as [|k]; [discriminate Hce|].
      cbn [ceval] in Hce. rewrite (Hcsub "sizeof" sizeof_ext) in Hce. discriminate Hce.
  Qed.

  Theorem expr_inv V e : pfrag V e -> Inv V e.
  Proof.
    induction 1.
    - eapply inv_ident; eauto.
    - eapply inv_num; eauto.
    - eapply inv_reg; eauto.
    - eapply inv_newreg; eauto.
    - apply inv_imm; auto.
    - apply inv_alias; auto.
    - apply inv_expl; auto.
    - apply inv_pc.
    - eapply inv_cast; eauto.
    - apply inv_un; auto.
    - destruct H as [H | H]; [apply inv_fold; auto|].
      destruct H as [H | [H | [H | [H | [H | H]]]]].
      1-5: apply inv_bitshift; auto; tauto.
      apply inv_logic; auto.
    - apply inv_cond; auto.
    - apply inv_sizeof; auto.
    - eapply inv_cast_load; eauto.
    - destruct H as [-> | [-> | ->]]; (eapply inv_mac; [reflexivity | reflexivity | auto using invl_cons, invl_nil]).
    - destruct H as [-> | [-> | ->]]; (eapply inv_mac; [reflexivity | reflexivity | auto using invl_cons, invl_nil]).
    - destruct H as [-> | ->]; (eapply inv_mac; [reflexivity | reflexivity | auto 6 using invl_cons, invl_nil]).
  Qed.

End Correct.

Definition shape_pv (pv : pval) (ilv : val) : Prop :=
  if vt_bool (pv_ty pv) then exists b, ilv = VB b
  else exists z, ilv = VBv (vt_w (pv_ty pv)) z /\ 0 <= z < pow2 (vt_w (pv_ty pv)) /\
                 ity (pv_ty pv) (vt_sg (pv_ty pv)) (vt_w (pv_ty pv)) /\ okw (vt_w (pv_ty pv)).
Definition agrees (pv : pval) (cv : cval) (ilv : val) : Prop :=
  match ilv with
  | VB b => cv = ((true, 32%N), if b then 1 else 0)
  | VBv _ z => cv = ((vt_sg (pv_ty pv), vt_w (pv_ty pv)), z)
  end.

Lemma lst_ok_init IM cfg : lst_ok IM [] (init_state cfg).
Proof.
  unfold lst_ok. cbn [init_state st_vars st_imms st_regs lookup].
  split; [reflexivity|]. split; [reflexivity|]. split; [intros l Hl; left; reflexivity|]. split; [constructor | apply regs_ok_nil].
Qed.

(* the lowering does not depend on the table R the result is later finalised against: the existential
   witnesses of a statement proved for every R can be chosen before R *)
Lemma exists_forall_swap {A B X : Type} (f : res (A * B)) (P : X -> A -> B -> Prop) (x0 : X) :
  (forall x, exists a b, f = OK (a, b) /\ P x a b) ->
  exists a b, f = OK (a, b) /\ forall x, P x a b.
Proof.
  intros H. destruct (H x0) as [a [b [L _]]]. exists a, b. split; [exact L|].
  intros x. destruct (H x) as [a2 [b2 [L2 P2]]]. rewrite L in L2. injection L2 as <- <-. exact P2.
Qed.

Theorem expr_correct : forall (cfg : config) (rw : regwidth) (IM : string -> bool) (E : cenv) (csub : csubs) xi V e st,
  cfg_fx cfg = all_fixes -> cfg_params cfg = [] -> macs_std (cfg_macros cfg) -> subs_ext (cfg_subs cfg) -> csub_ext csub -> xi_ok xi ->
  lst_ok IM V st -> pfrag rw IM V e ->
  exists pv st', lower_expr cfg e st = OK (IPure pv, st') /\ st_ext st st' /\ lst_ok IM V st' /\
    forall R rem, regs_le (st_regs st') R -> norem rem ->
    forall cs ms, rel IM E V cs ms -> imms_done IM E (st_imms st') cs ms ->
      exists ilv, eval rw ms [] (fin_pure R rem (pv_term pv)) = Some ilv /\ shape_pv pv ilv /\
        forall fuel cs' cv, ceval E csub xi fuel cs e = Some (cs', cv) -> arms_ok fuel cs e ->
          cs' = cs /\ agrees pv cv ilv.
Proof.
  intros cfg rw IM E csub xi V e st Hfx Hpar Hmacs Hsubs Hcsub Hxi Hok Hfrag.
  destruct cfg as [fx0 subs macs params cret hstart]. cbn in Hfx, Hpar, Hmacs, Hsubs. subst fx0 params.
  match goal with |- exists pv st', ?f = OK (IPure pv, st') /\ _ =>
    destruct (exists_forall_swap (match f with OK (IPure p, s) => OK (p, s) | OK _ => Err "" | Err m => Err m end)
                (fun (x : list (string * reginfo) * list string) pv st' => st_ext st st' /\ lst_ok IM V st' /\
      (regs_le (st_regs st') (fst x) -> norem (snd x) ->
       forall cs ms, rel IM E V cs ms -> imms_done IM E (st_imms st') cs ms ->
        exists ilv, eval rw ms [] (fin_pure (fst x) (snd x) (pv_term pv)) = Some ilv /\ shape_pv pv ilv /\
          forall fuel cs' cv, ceval E csub xi fuel cs e = Some (cs', cv) -> arms_ok fuel cs e ->
            cs' = cs /\ agrees pv cv ilv)) ([], [])) as [pv [st' [L H]]]
  end.
  - intros [R rem]. cbn [fst snd].
    destruct (expr_inv subs macs cret hstart Hmacs Hsubs rw R rem IM E csub Hcsub xi Hxi V e Hfrag V st (vext_refl V) Hok) as [pv [st' [L [S [K [G [_ [_ Hsem]]]]]]]].
    exists pv, st'. split; [rewrite L; reflexivity|]. split; [exact S|]. split; [exact K|].
    intros HR Hrem cs ms Hrel Himm. destruct (Hsem HR Hrem cs ms Hrel Himm) as [ilv [[He Hs] Hc]].
    exists ilv. split; [exact He|].
    destruct G as [[Ht Hk] | [sg [w [Hw [Ht Hk]]]]].
    + unfold shape_pv, shape in *. rewrite Ht in *. cbn [vt_bool ty_bool] in *. destruct Hs as [b ->]. split; [eauto|].
      intros fuel cs' cv H1 H2. destruct (Hc fuel cs' cv H1 H2) as [-> ->]. split; reflexivity.
    + destruct (ity_inv _ _ _ Ht) as [h0 Et]. unfold shape_pv, shape in *. rewrite Et in *. cbn [vt_bool vt_w vt_sg ty_h] in *. destruct Hs as [z [-> Hz]].
      split; [exists z; split; [reflexivity|]; split; [exact Hz|]; split; [apply ity_h | exact Hw]|].
      intros fuel cs' cv H1 H2. destruct (Hc fuel cs' cv H1 H2) as [-> ->]. split; [reflexivity|].
      unfold agrees. rewrite Et. reflexivity.
  - exists pv, st'. destruct (H ([], [])) as [S [K _]].
    split; [|split; [exact S|split; [exact K|intros R rem; apply (H (R, rem))]]].
    destruct (lower_expr _ e st) as [[[] s]|]; try discriminate L. injection L as -> ->. reflexivity.
Qed.
Print Assumptions expr_correct.

Theorem expr_correct_unconditional : forall (cfg : config) (rw : regwidth) (IM : string -> bool) (E : cenv) (csub : csubs) xi V e st,
  cfg_fx cfg = all_fixes -> cfg_params cfg = [] -> macs_std (cfg_macros cfg) -> subs_ext (cfg_subs cfg) -> csub_ext csub -> xi_ok xi ->
  lst_ok IM V st -> pfrag rw IM V e ->
  exists pv st', lower_expr cfg e st = OK (IPure pv, st') /\ st_ext st st' /\ lst_ok IM V st' /\
    forall R rem, regs_le (st_regs st') R -> norem rem ->
    forall cs ms, rel IM E V cs ms -> imms_done IM E (st_imms st') cs ms ->
      exists ilv, eval rw ms [] (fin_pure R rem (pv_term pv)) = Some ilv /\ shape_pv pv ilv /\
        forall fuel cs' cv, ceval E csub xi fuel cs e = Some (cs', cv) -> cs' = cs /\ agrees pv cv ilv.
Proof.
  intros cfg rw IM E csub xi V e st Hfx Hpar Hmacs Hsubs Hcsub Hxi Hok Hfrag.
  destruct (expr_correct cfg rw IM E csub xi V e st Hfx Hpar Hmacs Hsubs Hcsub Hxi Hok Hfrag) as [pv [st' [L [S [K H]]]]].
  exists pv, st'. split; [exact L|]. split; [exact S|]. split; [exact K|].
  intros R rem HR Hrem cs ms Hrel Himm. destruct (H R rem HR Hrem cs ms Hrel Himm) as [ilv [He [Hsh Hc]]].
  exists ilv. split; [exact He|]. split; [exact Hsh|].
  intros fuel cs' cv H1. apply (Hc fuel cs' cv H1). exact I.
Qed.
Print Assumptions expr_correct_unconditional.
