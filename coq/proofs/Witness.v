(* Vocabulary for refutation witnesses: a program (AST) and an initial state (seed of
   sem/Diff.env_of_seed) on which the FAITHFUL model's translation and the C semantics disagree. *)
From Coq Require Import ZArith NArith List Bool String.
From RZ.sem Require Import RzIL CSem Diff.
From RZ.model Require Import Ast Types OpTables Lower Guards.
From RZ.gen Require Import Resources.
Import ListNotations.
Local Open Scope string_scope.
Local Open Scope Z_scope.

Definition fuel0 : nat := 400.
Definition verdict_of (c : config) (p : cstmts) (seed : Z) : option verdict :=
  match tlower c p with
  | OK (e, _) => Some (run_one xi csub_table ilsub_table fuel0 p e seed)
  | Err _ => None
  end.
(* the translation is accepted, C defines the result, the IL computes something else (or gets stuck: ill-sorted) *)
Definition mistranslated (p : cstmts) (seed : Z) : Prop :=
  verdict_of (cfg_insn 0) p seed = Some Differ \/ verdict_of (cfg_insn 0) p seed = Some ILStuck.
(* on this state the translation agrees with C *)
Definition translated_ok_on (c : config) (p : cstmts) (seed : Z) : Prop := verdict_of c p seed = Some Agree.

Definition repaired (c : config) : config := with_fx all_fixes c.

(* the statement the properties C01-C03, C05, C06, C08, C09 are instances of: for every program p of the class and
   every seed, if the real configuration (cfg_insn 0) accepts p, then on the initial state Diff.env_of_seed makes of
   the seed, and within fuel0 steps, the emitted effect runs to the outcome the C semantics gives; a run on which
   C defines no outcome within that fuel counts as agreement.  (The states are those of env_of_seed, not all states.) *)
Definition faithful_on (class : cstmts -> Prop) : Prop :=
  forall p seed, class p ->
    match verdict_of (cfg_insn 0) p seed with
    | Some Differ | Some ILStuck => False
    | _ => True
    end.
Lemma refute (class : cstmts -> Prop) p seed : class p -> mistranslated p seed -> ~ faithful_on class.
Proof.
  intros Hc [H|H] F; specialize (F p seed Hc); rewrite H in F; exact F.
Qed.
