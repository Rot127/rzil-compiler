(* The canonical form used to compare RzIL effects (flatten nested ESeq, drop EEmpty, recursively
   in the arms of EBranch and the body of ERepeat) preserves the meaning of effects, stated through
   terminating runs of the fuelled interpreter [exec]. *)
From Coq Require Import ZArith NArith List Bool String Lia.
From RZ Require Import lib.BV sem.RzIL.
Import ListNotations.

Section SeqLaws.
  Variable rw : regwidth.
  Variable subs : subenv.

  Definition runs (e : effect) (s s' : mstate) : Prop :=
    exists fuel, exec rw subs fuel e s = Some s'.

  Lemma exec_mono : forall fuel e s s',
      exec rw subs fuel e s = Some s' ->
      forall fuel', (fuel <= fuel')%nat -> exec rw subs fuel' e s = Some s'.
  Proof.
    induction fuel as [|k IH]; intros e s s' H fuel' Hle.
    - discriminate H.
    - destruct fuel' as [|k']; [lia|].
      assert (Hk : (k <= k')%nat) by lia.
      destruct e; cbn [exec] in H |- *; try exact H.
      + (* ESeq *)
        destruct (exec rw subs k e1 s) as [m|] eqn:E1; [|discriminate H].
        rewrite (IH _ _ _ E1 _ Hk). exact (IH _ _ _ H _ Hk).
      + (* EBranch *)
        destruct (eval rw s [] c) as [[w v|[|]]|]; try discriminate H;
          exact (IH _ _ _ H _ Hk).
      + (* ERepeat *)
        destruct (eval rw s [] c) as [[w v|[|]]|]; try discriminate H; try exact H.
        destruct (exec rw subs k e s) as [m|] eqn:E1; [|discriminate H].
        rewrite (IH _ _ _ E1 _ Hk). exact (IH _ _ _ H _ Hk).
      + (* ECall *)
        destruct (subs f) as [[ps body]|]; [|exact H].
        exact (IH _ _ _ H _ Hk).
  Qed.

  Lemma runs_det : forall e s s1 s2, runs e s s1 -> runs e s s2 -> s1 = s2.
  Proof.
    intros e s s1 s2 [f1 H1] [f2 H2].
    pose proof (exec_mono _ _ _ _ H1 (Nat.max f1 f2) (Nat.le_max_l _ _)) as H1'.
    pose proof (exec_mono _ _ _ _ H2 (Nat.max f1 f2) (Nat.le_max_r _ _)) as H2'.
    rewrite H1' in H2'. injection H2' as ->. reflexivity.
  Qed.

  Lemma runs_seq : forall a b s s'',
      runs (ESeq a b) s s'' <-> exists s', runs a s s' /\ runs b s' s''.
  Proof.
    intros a b s s''; split.
    - intros [fuel H]. destruct fuel as [|k]; [discriminate H|].
      cbn [exec] in H.
      destruct (exec rw subs k a s) as [m|] eqn:E1; [|discriminate H].
      exists m; split; exists k; assumption.
    - intros [m [[f1 H1] [f2 H2]]].
      exists (S (Nat.max f1 f2)). cbn [exec].
      rewrite (exec_mono _ _ _ _ H1 _ (Nat.le_max_l _ _)).
      exact (exec_mono _ _ _ _ H2 _ (Nat.le_max_r _ _)).
  Qed.

  (* a unit: an effect that every positive fuel maps to the unchanged state *)
  Lemma runs_unit u : (forall k s, exec rw subs (S k) u s = Some s) -> forall s s', runs u s s' <-> s = s'.
  Proof.
    intros Hu s s'; split.
    - intros [fuel H]. destruct fuel as [|k]; [discriminate H|].
      rewrite Hu in H. injection H as ->. reflexivity.
    - intros ->. exists 1%nat. apply Hu.
  Qed.

  Lemma runs_empty : forall s s', runs EEmpty s s' <-> s = s'.
  Proof. apply runs_unit. reflexivity. Qed.

  Lemma runs_nop : forall s s', runs ENop s s' <-> s = s'.
  Proof. apply runs_unit. reflexivity. Qed.

  (* a unit is neutral for sequencing, on either side *)
  Lemma runs_seq_unit_l u a : (forall s s', runs u s s' <-> s = s') ->
    forall s s', runs (ESeq u a) s s' <-> runs a s s'.
  Proof.
    intros Hu s s'. rewrite runs_seq. split.
    - intros [m [Hm Ha]]. apply Hu in Hm. subst m. exact Ha.
    - intros Ha. exists s. split; [apply Hu; reflexivity | exact Ha].
  Qed.

  Lemma runs_seq_unit_r u a : (forall s s', runs u s s' <-> s = s') ->
    forall s s', runs (ESeq a u) s s' <-> runs a s s'.
  Proof.
    intros Hu s s'. rewrite runs_seq. split.
    - intros [m [Ha Hm]]. apply Hu in Hm. subst m. exact Ha.
    - intros Ha. exists s'. split; [exact Ha | apply Hu; reflexivity].
  Qed.

  Lemma runs_seq_empty_l : forall a s s', runs (ESeq EEmpty a) s s' <-> runs a s s'.
  Proof. intro a. apply runs_seq_unit_l, runs_empty. Qed.

  Lemma runs_seq_empty_r : forall a s s', runs (ESeq a EEmpty) s s' <-> runs a s s'.
  Proof. intro a. apply runs_seq_unit_r, runs_empty. Qed.

  (* ENop is neutral too; canon keeps it *)
  Lemma runs_seq_nop_l : forall a s s', runs (ESeq ENop a) s s' <-> runs a s s'.
  Proof. intro a. apply runs_seq_unit_l, runs_nop. Qed.

  Lemma runs_seq_nop_r : forall a s s', runs (ESeq a ENop) s s' <-> runs a s s'.
  Proof. intro a. apply runs_seq_unit_r, runs_nop. Qed.

  Lemma runs_seq_assoc : forall a b c s s',
      runs (ESeq (ESeq a b) c) s s' <-> runs (ESeq a (ESeq b c)) s s'.
  Proof.
    intros a b c s s'. split.
    - intros H. apply runs_seq in H. destruct H as [m2 [Hab Hc]].
      apply runs_seq in Hab. destruct Hab as [m1 [Ha Hb]].
      apply runs_seq. exists m1. split; [exact Ha|].
      apply runs_seq. exists m2. split; assumption.
    - intros H. apply runs_seq in H. destruct H as [m1 [Ha Hbc]].
      apply runs_seq in Hbc. destruct Hbc as [m2 [Hb Hc]].
      apply runs_seq. exists m2. split; [|exact Hc].
      apply runs_seq. exists m1. split; assumption.
  Qed.

  (* congruence of ESeq, a direct consequence of runs_seq *)
  Lemma runs_seq_congr : forall a a' b b',
      (forall s s', runs a s s' <-> runs a' s s') ->
      (forall s s', runs b s s' <-> runs b' s s') ->
      forall s s', runs (ESeq a b) s s' <-> runs (ESeq a' b') s s'.
  Proof.
    intros a a' b b' Ha Hb s s'. rewrite !runs_seq.
    split; intros [m [H1 H2]]; exists m; (split; [apply Ha | apply Hb]); assumption.
  Qed.

  Lemma runs_seqn_cons : forall e t s s'',
      runs (seqn (e :: t)) s s'' <-> exists s', runs e s s' /\ runs (seqn t) s' s''.
  Proof.
    intros e t s s''. destruct t as [|e2 t].
    - cbn [seqn]. rewrite <- runs_seq. symmetry. apply runs_seq_empty_r.
    - change (seqn (e :: e2 :: t)) with (ESeq e (seqn (e2 :: t))). apply runs_seq.
  Qed.

  Lemma runs_seqn_app : forall l1 l2 s s'',
      runs (seqn (l1 ++ l2)) s s'' <->
      exists s', runs (seqn l1) s s' /\ runs (seqn l2) s' s''.
  Proof.
    induction l1 as [|e t IH]; intros l2 s s''.
    - cbn [app seqn]. rewrite <- runs_seq. symmetry. apply runs_seq_empty_l.
    - change ((e :: t) ++ l2) with (e :: (t ++ l2)). split.
      + intros H. apply runs_seqn_cons in H. destruct H as [m1 [He Ht]].
        apply IH in Ht. destruct Ht as [m2 [Ht Hl2]].
        exists m2. split; [|exact Hl2].
        apply runs_seqn_cons. exists m1. split; assumption.
      + intros [m2 [Hl1 Hl2]].
        apply runs_seqn_cons in Hl1. destruct Hl1 as [m1 [He Ht]].
        apply runs_seqn_cons. exists m1. split; [exact He|].
        apply IH. exists m2. split; assumption.
  Qed.

  Lemma runs_branch_inv : forall c t f s s',
      runs (EBranch c t f) s s' <->
      (eval rw s [] c = Some (VB true) /\ runs t s s') \/
      (eval rw s [] c = Some (VB false) /\ runs f s s').
  Proof.
    intros c t f s s'. split.
    - intros [fuel H]. destruct fuel as [|k]; [discriminate H|].
      cbn [exec] in H.
      destruct (eval rw s [] c) as [[w v|[|]]|]; try discriminate H.
      + left. split; [reflexivity | exists k; exact H].
      + right. split; [reflexivity | exists k; exact H].
    - intros [[Hc [k H]] | [Hc [k H]]]; exists (S k); cbn [exec]; rewrite Hc; exact H.
  Qed.

  Lemma runs_branch_congr : forall c t t' f f',
      (forall s s', runs t s s' <-> runs t' s s') ->
      (forall s s', runs f s s' <-> runs f' s s') ->
      forall s s', runs (EBranch c t f) s s' <-> runs (EBranch c t' f') s s'.
  Proof.
    intros c t t' f f' Ht Hf s s'. rewrite !runs_branch_inv.
    split; (intros [[Hc H] | [Hc H]]; [left | right]; (split; [exact Hc|]); [apply Ht | apply Hf]; exact H).
  Qed.

  Lemma runs_repeat_false : forall c b s,
      eval rw s [] c = Some (VB false) -> runs (ERepeat c b) s s.
  Proof.
    intros c b s Hc. exists 1%nat. cbn [exec]. rewrite Hc. reflexivity.
  Qed.

  Lemma runs_repeat_true : forall c b s m s',
      eval rw s [] c = Some (VB true) ->
      runs b s m -> runs (ERepeat c b) m s' -> runs (ERepeat c b) s s'.
  Proof.
    intros c b s m s' Hc [f1 H1] [f2 H2].
    exists (S (Nat.max f1 f2)). cbn [exec]. rewrite Hc.
    rewrite (exec_mono _ _ _ _ H1 _ (Nat.le_max_l _ _)).
    exact (exec_mono _ _ _ _ H2 _ (Nat.le_max_r _ _)).
  Qed.

  (* one-step unfolding of a loop, as an equivalence *)
  Lemma runs_repeat_unfold : forall c b s s',
      runs (ERepeat c b) s s' <->
      (eval rw s [] c = Some (VB true) /\ exists m, runs b s m /\ runs (ERepeat c b) m s') \/
      (eval rw s [] c = Some (VB false) /\ s = s').
  Proof.
    intros c b s s'. split.
    - intros [fuel H]. destruct fuel as [|k]; [discriminate H|].
      cbn [exec] in H.
      destruct (eval rw s [] c) as [[w v|[|]]|]; try discriminate H.
      + destruct (exec rw subs k b s) as [m|] eqn:E1; [|discriminate H].
        left. split; [reflexivity|]. exists m. split; exists k; assumption.
      + right. injection H as ->. split; reflexivity.
    - intros [[Hc [m [Hb Hr]]] | [Hc ->]].
      + eapply runs_repeat_true; eassumption.
      + apply runs_repeat_false; exact Hc.
  Qed.

  (* one direction of runs_repeat_congr, by induction on the fuel of the given run of the loop *)
  Lemma runs_repeat_congr_half : forall c b b',
      (forall s s', runs b s s' -> runs b' s s') ->
      forall fuel s s', exec rw subs fuel (ERepeat c b) s = Some s' -> runs (ERepeat c b') s s'.
  Proof.
    intros c b b' Hb. induction fuel as [|k IH]; intros s s' H.
    - discriminate H.
    - cbn [exec] in H.
      destruct (eval rw s [] c) as [[w v|[|]]|] eqn:Hc; try discriminate H.
      + destruct (exec rw subs k b s) as [m|] eqn:E1; [|discriminate H].
        apply (runs_repeat_true c b' s m s' Hc).
        * apply Hb. exists k. exact E1.
        * apply IH. exact H.
      + injection H as ->. apply runs_repeat_false. exact Hc.
  Qed.

  Lemma runs_repeat_congr : forall c b b',
      (forall s s', runs b s s' <-> runs b' s s') ->
      forall s s', runs (ERepeat c b) s s' <-> runs (ERepeat c b') s s'.
  Proof.
    intros c b b' Hb s s'. split; intros [fuel H].
    - apply (runs_repeat_congr_half c b b' (fun x y => proj1 (Hb x y)) fuel s s' H).
    - apply (runs_repeat_congr_half c b' b (fun x y => proj2 (Hb x y)) fuel s s' H).
  Qed.

  Lemma seqn_flat_preserves_runs : forall e s s', runs (seqn (flat e)) s s' <-> runs e s s'.
  Proof.
    induction e as [x p | r p | a v | a IHa b IHb | c t IHt f IHf | c b IHb | | | f l | h l];
      intros s s'; cbn [flat seqn]; try reflexivity.
    - (* ESeq *)
      rewrite runs_seqn_app, <- runs_seq. apply runs_seq_congr; assumption.
    - (* EBranch *)
      apply runs_branch_congr; assumption.
    - (* ERepeat *)
      apply runs_repeat_congr; assumption.
  Qed.

  Theorem canon_preserves_runs : forall e s s', runs (canon e) s s' <-> runs e s s'.
  Proof. intros e s s'. unfold canon. apply seqn_flat_preserves_runs. Qed.

  Corollary canon_eq_runs_equiv : forall e1 e2,
      canon e1 = canon e2 -> forall s s', runs e1 s s' <-> runs e2 s s'.
  Proof.
    intros e1 e2 Heq s s'.
    rewrite <- (canon_preserves_runs e1), <- (canon_preserves_runs e2), Heq. reflexivity.
  Qed.

  (* same final state, phrased with determinism: if e1 terminates in s1 from s and e2 has the same
     canonical form, then e2 terminates from s, and only in s1 *)
  Corollary canon_eq_same_result : forall e1 e2,
      canon e1 = canon e2 ->
      forall s s1, runs e1 s s1 -> runs e2 s s1 /\ forall s2, runs e2 s s2 -> s2 = s1.
  Proof.
    intros e1 e2 Heq s s1 H1.
    assert (H2 : runs e2 s s1) by (apply (canon_eq_runs_equiv e1 e2 Heq); exact H1).
    split; [exact H2|]. intros s2 H2'. exact (runs_det _ _ _ _ H2' H2).
  Qed.

  (* canon is idempotent up to runs *)
  Corollary canon_canon_runs : forall e s s', runs (canon (canon e)) s s' <-> runs (canon e) s s'.
  Proof. intros e s s'. apply canon_preserves_runs. Qed.
End SeqLaws.

Print Assumptions exec_mono.
Print Assumptions runs_det.
Print Assumptions runs_seq.
Print Assumptions runs_seq_empty_l.
Print Assumptions runs_seq_empty_r.
Print Assumptions runs_seq_assoc.
Print Assumptions runs_seqn_app.
Print Assumptions runs_branch_congr.
Print Assumptions runs_repeat_congr.
Print Assumptions canon_eq_runs_equiv.
Print Assumptions canon_eq_same_result.
Print Assumptions canon_preserves_runs.
