(* C15 support: nothing is silently dropped.
   For EVERY program and EVERY configuration whose switch fx_reject_dropped is on (all other
   fields of the configuration, including the other repair switches, are universally quantified):
   (T1) no_raw_items        : the item list returned by the traversal contains no ITree, and an
                              ITok only where a string literal is used as an expression statement;
   (T2) unsupported_rejected: a program mentioning an unsupported construct at ANY depth is
                              rejected with an error.
   From T1: nothing_dropped, translated_or_rejected (an accepted program without a string-literal
   expression statement has no item discarded by the final filter) and, for the configuration of
   the repository, C15_all_programs; props/C15.v states the property through these. *)
From Coq Require Import ZArith NArith List Bool String.
From RZ.sem Require Import RzIL.
From RZ.model Require Import Ast Types OpTables Lower Guards.
From RZ.gen Require Import Resources.
Import ListNotations.
Local Open Scope string_scope.

Lemma bind_ok_inv {A B} (m : M A) (f : A -> M B) s x s' :
  bind m f s = OK (x, s') -> exists y s1, m s = OK (y, s1) /\ f y s1 = OK (x, s').
Proof.
  unfold bind. intros Hb. destruct (m s) as [[y s1]|e] eqn:Hm.
  - exists y, s1. split; [reflexivity | exact Hb].
  - discriminate Hb.
Qed.

Lemma bind_err {A B} (m : M A) (f : A -> M B) s e : m s = Err e -> bind m f s = Err e.
Proof. unfold bind. intros Hm. rewrite Hm. reflexivity. Qed.

(* a computation that fails from every state *)
Definition fails {A} (m : M A) : Prop := forall s, exists msg, m s = Err msg.

Lemma fails_fail {A} msg : fails (@fail A msg).
Proof. intros s. exists msg. reflexivity. Qed.

(* every successful run returns a value satisfying Q *)
Definition yields {A} (Q : A -> Prop) (m : M A) : Prop := forall s a s', m s = OK (a, s') -> Q a.

Lemma yields_ret {A} (Q : A -> Prop) a : Q a -> yields Q (ret a).
Proof. intros Hq s a' s' Hr. unfold ret in Hr. inversion Hr; subst. exact Hq. Qed.

Lemma yields_fail {A} (Q : A -> Prop) msg : yields Q (@fail A msg).
Proof. intros s a s' Hr. discriminate Hr. Qed.

Lemma yields_bind_mid {A B} (P : A -> Prop) (Q : B -> Prop) (m : M A) (f : A -> M B) :
  yields P m -> (forall x, P x -> yields Q (f x)) -> yields Q (bind m f).
Proof.
  intros Hm Hf s b s' Hb. apply bind_ok_inv in Hb. destruct Hb as (y & s1 & Hy & Hfy).
  exact (Hf y (Hm _ _ _ Hy) _ _ _ Hfy).
Qed.

Lemma yields_bind {A B} (Q : B -> Prop) (m : M A) (f : A -> M B) :
  (forall x, yields Q (f x)) -> yields Q (bind m f).
Proof.
  intros Hf. apply (yields_bind_mid (fun _ => True)).
  - intros s a s' _. exact I.
  - intros x _. apply Hf.
Qed.

Lemma yields_weaken {A} (P Q : A -> Prop) (m : M A) : (forall a, P a -> Q a) -> yields P m -> yields Q m.
Proof. intros Hpq Hm s a s' Hr. apply Hpq. exact (Hm _ _ _ Hr). Qed.

Lemma yields_if {A} (Q : A -> Prop) (c : bool) (m1 m2 : M A) :
  yields Q m1 -> yields Q m2 -> yields Q (if c then m1 else m2).
Proof. intros H1 H2. destruct c; assumption. Qed.

Lemma yields_also {A} (P : A -> Prop) (C : Prop) (m : M A) : C -> yields P m -> yields (fun a => P a /\ C) m.
Proof. intros Hc Hm s a s' Hr. split; [exact (Hm _ _ _ Hr) | exact Hc]. Qed.

(* a postcondition with a boolean part that must be false: the computation fails if it is true,
   and yields the rest *)
Lemma yields_and_false {A} (P : A -> Prop) (b : bool) (m : M A) :
  yields (fun a => P a /\ b = false) m <-> (b = true -> fails m) /\ yields P m.
Proof.
  split.
  - intros Hm. split.
    + intros Hb s. destruct (m s) as [[a s']|msg] eqn:Hr; [| exists msg; reflexivity].
      destruct (Hm _ _ _ Hr) as [_ Hf]. rewrite Hb in Hf. discriminate Hf.
    + exact (yields_weaken _ _ _ (fun a => @proj1 _ _) Hm).
  - intros [Hf Hp]. destruct b.
    + intros s a s' Hr. destruct (Hf eq_refl s) as [msg He]. rewrite He in Hr. discriminate Hr.
    + apply yields_also; [reflexivity | exact Hp].
Qed.

(* The generated scheme Ast.ast_mutind gives no hypothesis for the sub-terms that sit under an
   `option` (else branch, for-step, initialiser, return value); this one does. *)
Definition opt_all {A} (P : A -> Prop) (o : option A) : Prop := match o with Some a => P a | None => True end.

Section AstInd.
  Variable Pe : cexpr -> Prop.
  Variable Pes : cexprs -> Prop.
  Variable Ps : cstmt -> Prop.
  Variable Pss : cstmts -> Prop.
  Hypothesis HOp : forall o, Pe (EOp o).
  Hypothesis HCast : forall t e, Pe e -> Pe (ECast t e).
  Hypothesis HUn : forall u e, Pe e -> Pe (EUn u e).
  Hypothesis HBin : forall b l r, Pe l -> Pe r -> Pe (EBin b l r).
  Hypothesis HCond : forall c t e, Pe c -> Pe t -> Pe e -> Pe (ECond c t e).
  Hypothesis HAssign : forall a l r, Pe l -> Pe r -> Pe (EAssign a l r).
  Hypothesis HPost : forall i e, Pe e -> Pe (EPost i e).
  Hypothesis HCall : forall f args, Pes args -> Pe (ECall f args).
  Hypothesis HMacro : forall m args, Pes args -> Pe (EMacro m args).
  Hypothesis HLoad : forall sg w args, Pes args -> Pe (ELoad sg w args).
  Hypothesis HStmtExpr : forall items last, Pss items -> Ps last -> Pe (EStmtExpr items last).
  Hypothesis HComma : forall l r, Pe l -> Pe r -> Pe (EComma l r).
  Hypothesis HIndex : forall a i, Pe a -> Pe i -> Pe (EIndex a i).
  Hypothesis HMember : forall a f, Pe a -> Pe (EMember a f).
  Hypothesis HPtrMember : forall a f, Pe a -> Pe (EPtrMember a f).
  Hypothesis HCallEmpty : forall a, Pe a -> Pe (ECallEmpty a).
  Hypothesis HSizeofT : forall t, Pe (ESizeofT t).
  Hypothesis HOther : forall w, Pe (EOther w).
  Hypothesis HENil : Pes ENil.
  Hypothesis HECons : forall e t, Pe e -> Pes t -> Pes (ECons e t).
  Hypothesis HSExpr : forall e, Pe e -> Ps (SExpr e).
  Hypothesis HSEmpty : Ps SEmpty.
  Hypothesis HSDecl : forall t x init, opt_all Pe init -> Ps (SDecl t x init).
  Hypothesis HSDeclOther : forall w, Ps (SDeclOther w).
  Hypothesis HSIf : forall c t e, Pe c -> Ps t -> opt_all Ps e -> Ps (SIf c t e).
  Hypothesis HSFor : forall i c s b, Ps i -> Ps c -> opt_all Pe s -> Ps b -> Ps (SFor i c s b).
  Hypothesis HSBlock : forall l, Pss l -> Ps (SBlock l).
  Hypothesis HSStore : forall sg w args, Pes args -> Ps (SStore sg w args).
  Hypothesis HSJump : forall e, Pe e -> Ps (SJump e).
  Hypothesis HSNop : Ps SNop.
  Hypothesis HSCancel : Ps SCancel.
  Hypothesis HSReturn : forall e, opt_all Pe e -> Ps (SReturn e).
  Hypothesis HSWhile : forall c b, Pe c -> Ps b -> Ps (SWhile c b).
  Hypothesis HSDo : forall b c, Ps b -> Pe c -> Ps (SDo b c).
  Hypothesis HSSwitch : forall c b, Pe c -> Ps b -> Ps (SSwitch c b).
  Hypothesis HSLabel : forall l s, Ps s -> Ps (SLabel l s).
  Hypothesis HSCase : forall s, Ps s -> Ps (SCase s).
  Hypothesis HSGoto : forall l, Ps (SGoto l).
  Hypothesis HSBreak : Ps SBreak.
  Hypothesis HSContinue : Ps SContinue.
  Hypothesis HSNil : Pss SNil.
  Hypothesis HSCons : forall s t, Ps s -> Pss t -> Pss (SCons s t).

  Fixpoint ind_e (e : cexpr) : Pe e :=
    match e with
    | EOp o => HOp o
    | ECast t a => HCast t a (ind_e a)
    | EUn u a => HUn u a (ind_e a)
    | EBin b l r => HBin b l r (ind_e l) (ind_e r)
    | ECond c t f => HCond c t f (ind_e c) (ind_e t) (ind_e f)
    | EAssign a l r => HAssign a l r (ind_e l) (ind_e r)
    | EPost i a => HPost i a (ind_e a)
    | ECall f args => HCall f args (ind_es args)
    | EMacro m args => HMacro m args (ind_es args)
    | ELoad sg w args => HLoad sg w args (ind_es args)
    | EStmtExpr items last => HStmtExpr items last (ind_ss items) (ind_s last)
    | EComma l r => HComma l r (ind_e l) (ind_e r)
    | EIndex a i => HIndex a i (ind_e a) (ind_e i)
    | EMember a f => HMember a f (ind_e a)
    | EPtrMember a f => HPtrMember a f (ind_e a)
    | ECallEmpty a => HCallEmpty a (ind_e a)
    | ESizeofT t => HSizeofT t
    | EOther w => HOther w
    end
  with ind_es (l : cexprs) : Pes l :=
    match l with
    | ENil => HENil
    | ECons e t => HECons e t (ind_e e) (ind_es t)
    end
  with ind_s (s : cstmt) : Ps s :=
    match s with
    | SExpr e => HSExpr e (ind_e e)
    | SEmpty => HSEmpty
    | SDecl t x init =>
        HSDecl t x init (match init return opt_all Pe init with Some e => ind_e e | None => I end)
    | SDeclOther w => HSDeclOther w
    | SIf c t e =>
        HSIf c t e (ind_e c) (ind_s t) (match e return opt_all Ps e with Some x => ind_s x | None => I end)
    | SFor i c st b =>
        HSFor i c st b (ind_s i) (ind_s c)
              (match st return opt_all Pe st with Some x => ind_e x | None => I end) (ind_s b)
    | SBlock l => HSBlock l (ind_ss l)
    | SStore sg w args => HSStore sg w args (ind_es args)
    | SJump e => HSJump e (ind_e e)
    | SNop => HSNop
    | SCancel => HSCancel
    | SReturn e => HSReturn e (match e return opt_all Pe e with Some x => ind_e x | None => I end)
    | SWhile c b => HSWhile c b (ind_e c) (ind_s b)
    | SDo b c => HSDo b c (ind_s b) (ind_e c)
    | SSwitch c b => HSSwitch c b (ind_e c) (ind_s b)
    | SLabel l s0 => HSLabel l s0 (ind_s s0)
    | SCase s0 => HSCase s0 (ind_s s0)
    | SGoto l => HSGoto l
    | SBreak => HSBreak
    | SContinue => HSContinue
    end
  with ind_ss (l : cstmts) : Pss l :=
    match l with
    | SNil => HSNil
    | SCons s t => HSCons s t (ind_s s) (ind_ss t)
    end.

  Lemma ast_full_ind : (forall e, Pe e) /\ (forall l, Pes l) /\ (forall s, Ps s) /\ (forall l, Pss l).
  Proof. exact (conj ind_e (conj ind_es (conj ind_s ind_ss))). Qed.
End AstInd.

(* node-level: forms on which the traversal fails whatever their sub-terms are *)
Definition unsupported_operand (o : operand) : bool := match o with OFloat _ => true | _ => false end.
Definition unsupported_unop (u : unop) : bool :=
  match u with UDeref | UAddr | UPreInc | UPreDec | USizeofE => true | _ => false end.

(* mu_ = mentions unsupported: true iff an unsupported construct occurs ANYWHERE in the tree (every
   sub-expression and sub-statement position of every constructor is descended into).  Unsupported
   is every form the traversal rejects at the node itself: besides the operands and operators above,
   comma, index, member, sizeof(type); `for` without step, `return;`, while, do, switch, labels and
   case, goto, break, continue, declarations of another form. *)
Fixpoint mu_expr (e : cexpr) : bool :=
  match e with
  | EOp o => unsupported_operand o
  | ECast _ a => mu_expr a
  | EUn u a => unsupported_unop u || mu_expr a
  | EBin _ l r => mu_expr l || mu_expr r
  | ECond c t f => mu_expr c || mu_expr t || mu_expr f
  | EAssign _ l r => mu_expr l || mu_expr r
  | EPost _ a => mu_expr a
  | ECall _ args => mu_exprs args
  | EMacro _ args => mu_exprs args
  | ELoad _ _ args => mu_exprs args
  | EStmtExpr items last => mu_stmts items || mu_stmt last
  | EComma _ _ => true
  | EIndex _ _ | EMember _ _ | EPtrMember _ _ | ECallEmpty _ | ESizeofT _ | EOther _ => true
  end
with mu_exprs (l : cexprs) : bool :=
  match l with
  | ENil => false
  | ECons e t => mu_expr e || mu_exprs t
  end
with mu_stmt (s : cstmt) : bool :=
  match s with
  | SExpr e => mu_expr e
  | SEmpty | SNop | SCancel => false
  | SDecl _ _ None => false
  | SDecl _ _ (Some init) => mu_expr init
  | SDeclOther _ => true
  | SIf c t None => mu_expr c || mu_stmt t
  | SIf c t (Some e) => mu_expr c || mu_stmt t || mu_stmt e
  | SFor _ _ None _ => true
  | SFor i c (Some st) b => mu_stmt i || mu_stmt c || mu_expr st || mu_stmt b
  | SBlock l => mu_stmts l
  | SStore _ _ args => mu_exprs args
  | SJump e => mu_expr e
  | SReturn None => true
  | SReturn (Some e) => mu_expr e
  | SWhile _ _ | SDo _ _ | SSwitch _ _ => true
  | SLabel _ _ | SCase _ => true
  | SGoto _ | SBreak | SContinue => true
  end
with mu_stmts (l : cstmts) : bool :=
  match l with
  | SNil => false
  | SCons s t => mu_stmt s || mu_stmts t
  end.

Definition mentions_unsupported (prog : cstmts) : bool := mu_stmts prog.

(* where a token item can still arise: a string-literal operand, possibly selected by a ?: whose
   condition folds to a constant (the live arm is returned as it is) *)
Fixpoint expr_may_tok (e : cexpr) : bool :=
  match e with
  | EOp (OString _) => true
  | ECond _ t f => expr_may_tok t || expr_may_tok f
  | _ => false
  end.
(* ... used as an expression statement of the list, directly or inside nested blocks (a block
   returns the items of its statements; every other statement form returns one effect) *)
Fixpoint stmt_may_tok (s : cstmt) : bool :=
  match s with
  | SExpr e => expr_may_tok e
  | SBlock l => stmts_may_tok l
  | _ => false
  end
with stmts_may_tok (l : cstmts) : bool :=
  match l with
  | SNil => false
  | SCons s t => stmt_may_tok s || stmts_may_tok t
  end.
Definition has_string_stmt (prog : cstmts) : bool := stmts_may_tok prog.

(* never a raw tree; a token only if allowed *)
Definition tok_ok (allowed : bool) (i : item) : Prop :=
  match i with ITree _ => False | ITok _ => allowed = true | _ => True end.
Definition clean (i : item) : Prop := tok_ok false i.

(* both orders of the disjunction, so that no use needs orb_comm *)
Lemma tok_ok_mono a b i : tok_ok a i -> tok_ok (a || b) i /\ tok_ok (b || a) i.
Proof.
  destruct i; cbn [tok_ok]; auto. intros Ha. subst a. split; [reflexivity | apply orb_true_r].
Qed.
Lemma clean_any a i : clean i -> tok_ok a i.
Proof. unfold clean. destruct i; cbn [tok_ok]; auto. discriminate. Qed.
Lemma Forall_tok_ok_mono a b l : Forall (tok_ok a) l -> Forall (tok_ok (a || b)) l /\ Forall (tok_ok (b || a)) l.
Proof.
  intros Hl. split; (eapply Forall_impl; [| exact Hl]); intros i Hi; apply (tok_ok_mono a b i Hi).
Qed.

Section Traversal.
  Variable cfg : config.
  Hypothesis Hfx : fx_reject_dropped (cfg_fx cfg) = true.

  Lemma lower_operand_unsupported o : unsupported_operand o = true -> fails (lower_operand cfg o).
  Proof.
    intros Hu. destruct o; cbn [unsupported_operand] in Hu; try discriminate Hu.
    cbn [lower_operand]. apply fails_fail.
  Qed.

  Lemma lower_unop_unsupported u i : unsupported_unop u = true -> fails (lower_unop cfg u i).
  Proof.
    intros Hu. destruct u; cbn [unsupported_unop] in Hu; try discriminate Hu;
      cbn [lower_unop]; apply fails_fail.
  Qed.

  (* the forms that the switch turns from a dropped item into an error *)
  Lemma reject_dropped {A} (Q : A -> Prop) msg a :
    yields Q (if fx_reject_dropped (fx cfg) then fail msg else ret a).
  Proof. unfold fx. rewrite Hfx. apply yields_fail. Qed.

  (* one step through the TAIL of a `do` chain: only the last computation decides the item *)
  Ltac ystep :=
    cbv beta zeta;
    match goal with
    | |- yields _ (ret _) => apply yields_ret; cbn [clean tok_ok]; try exact I
    | |- yields _ (fail _) => apply yields_fail
    | |- yields _ (bind _ _) => apply yields_bind; intro
    | |- yields _ (if _ then _ else _) => apply yields_if
    | |- yields _ (match ?x with _ => _ end) => destruct x
    end.

  Lemma resolve_hybrid_clean t rdp hyb ef gcc tmps tree :
    yields clean (resolve_hybrid t rdp hyb ef gcc tmps tree).
  Proof. unfold resolve_hybrid. repeat ystep. Qed.

  Lemma lower_operand_ok o :
    yields (tok_ok (match o with OString _ => true | _ => false end)) (lower_operand cfg o).
  Proof. destruct o; cbn [lower_operand]; repeat ystep. reflexivity. Qed.

  Lemma lower_cast_clean t i : yields clean (lower_cast cfg t i).
  Proof. unfold lower_cast. repeat ystep. Qed.

  Lemma lower_unop_clean u i : yields clean (lower_unop cfg u i).
  Proof. destruct u; cbn [lower_unop]; repeat ystep. Qed.

  (* both operands literal, or not: the shape of the folding rules of lower_binop, whose default
     arm Coq copies once per pair of constructors *)
  Lemma yields_lit_lit {A} (Q : A -> Prop) (ka kc : kind) (X : Z -> bool -> Z -> bool -> M A) (Y : M A) :
    (forall va fa vb fb, yields Q (X va fa vb fb)) -> yields Q Y ->
    yields Q (match ka, kc with KLit va fa, KLit vb fb => X va fa vb fb | _, _ => Y end).
  Proof. intros HX HY. destruct ka; try exact HY. destruct kc; try exact HY. apply HX. Qed.

  Lemma lower_binop_clean b ia ib : yields clean (lower_binop cfg b ia ib).
  Proof.
    destruct b; cbn [lower_binop]; do 2 ystep; try (apply yields_lit_lit; [intros |]); repeat ystep.
  Qed.

  (* one-step unfolding of the traversal at a constructor.  `cbn` folds the recursive calls of the
     function it unfolded back into the constant, not those of the other three: `unroll_fold g` folds
     the calls of g as well, in the same conversion step (a raw `fix` in a goal is type-checked
     again wherever the proof term mentions that goal); g is the function of the other syntactic
     class that the form calls (lower_expr in a statement form, lower_stmt in SCons, ...).
     `cbn` rebuilds the body it unfolds, which is what it costs: a form without a call of its own
     function (no induction hypothesis about the function of the goal) is unfolded by the lazy
     machine instead, for next to nothing. *)
  Ltac unroll :=
    lazymatch goal with
    | H : yields _ (?c cfg _) |- yields _ (?c cfg _) => cbn [lower_expr lower_exprs lower_stmt lower_stmts]
    | |- _ => lazy beta iota fix delta [lower_expr lower_exprs lower_stmt lower_stmts]
    end.
  Ltac unroll_fold g :=
    match goal with |- yields ?Q ?m =>
      let m1 := eval cbn [lower_expr lower_exprs lower_stmt lower_stmts] in m in
      let m2 := eval fold g in m1 in
      change (yields Q m2)
    end.
  (* the postcondition of the goal and the `opt_all` hypotheses, at the constructor *)
  Ltac post :=
    cbn [mu_expr mu_exprs mu_stmt mu_stmts expr_may_tok stmt_may_tok stmts_may_tok opt_all] in *.

  Ltac ysteps := repeat ystep; try solve [ apply resolve_hybrid_clean | repeat constructor ].

  (* walk down to the recursive call that IH speaks of and go on with what it says of the result
     (two unnamed hypotheses: the items are allowed; `mu_.. x = false`, which `supported` picks up);
     where that call is the first computation, unification unfolds the traversal *)
  Ltac ih IH := first [ apply (yields_bind_mid _ _ _ _ IH); intros ? [? ?] | ystep; ih IH ].
  (* after the last recursive call: the mu part of the postcondition follows from those hypotheses *)
  Ltac supported := apply yields_also; [ auto using orb_false_intro |].

  (* T1 and T2 as one postcondition: a successful run returns allowed items only, and then the tree
     mentions nothing unsupported (so a tree that does, fails: yields_and_false).  One induction,
     because the expensive step is the unfolding of the traversal at a constructor: every
     recursive call in the unfolded body is a copy of the whole `fix`, compared again with the
     constant. *)
  Lemma lowered_all :
    (forall e, yields (fun i => tok_ok (expr_may_tok e) i /\ mu_expr e = false) (lower_expr cfg e)) /\
    (forall l, yields (fun r => Forall (tok_ok true) r /\ mu_exprs l = false) (lower_exprs cfg l)) /\
    (forall s, yields (fun r => Forall (tok_ok (stmt_may_tok s)) r /\ mu_stmt s = false) (lower_stmt cfg s)) /\
    (forall l, yields (fun r => Forall (tok_ok (stmts_may_tok l)) r /\ mu_stmts l = false) (lower_stmts cfg l)).
  Proof.
    apply ast_full_ind.
    - (* EOp *) intros o. post. apply yields_and_false. split.
      + apply lower_operand_unsupported.
      + apply lower_operand_ok.
    - (* ECast *) intros t e IHe. post. ih IHe. supported. apply lower_cast_clean.
    - (* EUn *) intros u e IHe. post.
      apply (yields_bind_mid _ _ _ _ IHe). intros ia [_ He]. rewrite He, orb_false_r.
      apply yields_and_false. split.
      + apply lower_unop_unsupported.
      + apply lower_unop_clean.
    - (* EBin *) intros b l r IHl IHr. post. unroll. ih IHl. ih IHr. supported. apply lower_binop_clean.
    - (* ECond *) intros c t e IHc IHt IHe. post. unroll. ih IHc.
      apply (yields_bind_mid _ _ _ _ IHt). intros it [Hit Ht].
      apply (yields_bind_mid _ _ _ _ IHe). intros ie [Hie He].
      supported. ysteps. (* left: a folded condition returns the live arm as it is *)
      match goal with |- tok_ok _ (if ?live then _ else _) => destruct live end.
      + apply (tok_ok_mono _ (expr_may_tok e) _ Hit).
      + apply (tok_ok_mono _ (expr_may_tok t) _ Hie).
    - (* EAssign *) intros a l r IHl IHr. post. unroll. ih IHl. ih IHr. supported. ysteps.
    - (* EPost *) intros i e IHe. post. ih IHe. supported. ysteps.
    - (* ECall *) intros f args IHa. post. ih IHa. supported. ysteps.
    - (* EMacro *) intros m args IHa. post. ih IHa. supported. ysteps.
    - (* ELoad *) intros sg w args IHa. post. ih IHa. supported. ysteps.
    - (* EStmtExpr *) intros items last IHi IHl. post.
      unroll_fold (lower_stmts cfg). fold (lower_stmt cfg). ih IHi. ih IHl. supported. ysteps.
    - (* EComma *) intros l r IHl IHr. post. unroll. do 2 ystep. apply reject_dropped.
    - (* EIndex *) intros. apply yields_fail.
    - (* EMember *) intros. apply yields_fail.
    - (* EPtrMember *) intros. apply yields_fail.
    - (* ECallEmpty *) intros. apply yields_fail.
    - (* ESizeofT *) intros. apply yields_fail.
    - (* EOther *) intros. apply yields_fail.
    - (* ENil *) apply yields_ret. split; [constructor | reflexivity].
    - (* ECons *) intros e t IHe IHt. post. unroll_fold (lower_expr cfg).
      apply (yields_bind_mid _ _ _ _ IHe). intros i [Hi He].
      apply (yields_bind_mid _ _ _ _ IHt). intros r [Hr Ht].
      supported. apply yields_ret. constructor; [exact (proj2 (tok_ok_mono _ true _ Hi)) | exact Hr].
    - (* SExpr *) intros e IHe. post.
      apply (yields_bind_mid _ _ _ _ IHe). intros i [Hi He].
      supported. apply yields_ret. constructor; [exact Hi | constructor].
    - (* SEmpty *) post. unroll. supported. ysteps.
    - (* SDecl *) intros t x init IHi. destruct init as [e|]; post.
      + unroll_fold (lower_expr cfg). ih IHi. supported. ysteps.
      + unroll. supported. ysteps.
    - (* SDeclOther *) intros. apply yields_fail.
    - (* SIf *) intros c t e IHc IHt IHe.
      destruct e as [e|]; post; unroll_fold (lower_expr cfg); ih IHc; ih IHt.
      + ih IHe. supported. ysteps.
      + supported. ysteps.
    - (* SFor *) intros i c s b IHi IHc IHs IHb. destruct s as [st|]; post.
      + unroll_fold (lower_expr cfg). ih IHi. ih IHc.
        apply (yields_bind_mid (fun _ => mu_expr st = false)).
        * ih IHs. apply yields_ret. assumption.
        * intros is_ Hs. ih IHb. supported. ysteps.
      + (* without step: the third computation is a `fail` *)
        unroll. ih IHi. ih IHc.
        apply (yields_bind_mid (fun _ => False)); [apply yields_fail | intros _ []].
    - (* SBlock *) intros l IHl. destruct l as [|s0 t0].
      + post. unroll. supported. ysteps.
      + exact IHl. (* by computation, a non-empty block is the traversal of its list *)
    - (* SStore *) intros sg w args IHa. post. ih IHa. supported. ysteps.
    - (* SJump *) intros e IHe. post. ih IHe. supported. ysteps.
    - (* SNop *) post. unroll. supported. ysteps.
    - (* SCancel *) post. unroll. supported. ysteps.
    - (* SReturn *) intros e IHe. destruct e as [e|]; post.
      + ih IHe. supported. ysteps.
      + apply yields_fail.
    - (* SWhile *) intros. apply yields_fail.
    - (* SDo *) intros. apply yields_fail.
    - (* SSwitch *) intros. apply yields_fail.
    - (* SLabel *) intros l s IHs. unroll. ystep. apply reject_dropped.
    - (* SCase *) intros s IHs. unroll. ystep. apply reject_dropped.
    - (* SGoto *) intros. apply reject_dropped.
    - (* SBreak *) intros. apply reject_dropped.
    - (* SContinue *) intros. apply reject_dropped.
    - (* SNil *) apply yields_ret. split; [constructor | reflexivity].
    - (* SCons *) intros s t IHs IHt. post. unroll_fold (lower_stmt cfg).
      apply (yields_bind_mid _ _ _ _ IHs). intros a [Ha Hs].
      apply (yields_bind_mid _ _ _ _ IHt). intros b [Hb Ht].
      supported. apply yields_ret. apply Forall_app. split.
      + apply (Forall_tok_ok_mono _ (stmts_may_tok t) _ Ha).
      + apply (Forall_tok_ok_mono _ (stmt_may_tok s) _ Hb).
  Qed.

  Lemma unsupported_fails_all :
    (forall e, mu_expr e = true -> fails (lower_expr cfg e)) /\
    (forall l, mu_exprs l = true -> fails (lower_exprs cfg l)) /\
    (forall s, mu_stmt s = true -> fails (lower_stmt cfg s)) /\
    (forall l, mu_stmts l = true -> fails (lower_stmts cfg l)).
  Proof.
    pose proof lowered_all as H. repeat split; intros x; eapply proj1; apply yields_and_false; apply H.
  Qed.

  Lemma no_raw_all :
    (forall e, yields (tok_ok (expr_may_tok e)) (lower_expr cfg e)) /\
    (forall l, yields (Forall (tok_ok true)) (lower_exprs cfg l)) /\
    (forall s, yields (Forall (tok_ok (stmt_may_tok s))) (lower_stmt cfg s)) /\
    (forall l, yields (Forall (tok_ok (stmts_may_tok l))) (lower_stmts cfg l)).
  Proof.
    pose proof lowered_all as H. repeat split; intros x; eapply proj2; apply yields_and_false; apply H.
  Qed.
End Traversal.

Theorem unsupported_rejected cfg prog :
  fx_reject_dropped (cfg_fx cfg) = true ->
  mentions_unsupported prog = true ->
  exists msg, tlower_info cfg prog = Err msg.
Proof.
  intros Hfx Hm. destruct (unsupported_fails_all cfg Hfx) as (_ & _ & _ & Hss).
  destruct (Hss prog Hm (init_state cfg)) as [msg Hl].
  exists msg. unfold tlower_info. rewrite Hl. reflexivity.
Qed.
Print Assumptions unsupported_rejected.

Corollary unsupported_rejected_tlower cfg prog :
  fx_reject_dropped (cfg_fx cfg) = true ->
  mentions_unsupported prog = true ->
  exists msg, tlower cfg prog = Err msg.
Proof.
  intros Hfx Hm. destruct (unsupported_rejected cfg prog Hfx Hm) as [msg Ht].
  exists msg. unfold tlower. rewrite Ht. reflexivity.
Qed.


Lemma Forall_tok_ok_In a l :
  Forall (tok_ok a) l -> (forall w, ~ In (ITree w) l) /\ (forall s, In (ITok s) l -> a = true).
Proof.
  intros Hl. rewrite Forall_forall in Hl. split.
  - intros w Hin. exact (Hl _ Hin).
  - intros s Hin. exact (Hl _ Hin).
Qed.

Theorem no_raw_items cfg prog st items st' :
  fx_reject_dropped (cfg_fx cfg) = true ->
  lower_stmts cfg prog st = OK (items, st') ->
  (forall w, ~ In (ITree w) items) /\ (forall s, In (ITok s) items -> has_string_stmt prog = true).
Proof.
  intros Hfx Hl. destruct (no_raw_all cfg Hfx) as (_ & _ & _ & Hss).
  apply Forall_tok_ok_In. exact (Hss prog st items st' Hl).
Qed.
Print Assumptions no_raw_items.

Theorem no_raw_items_stmt cfg s st items st' :
  fx_reject_dropped (cfg_fx cfg) = true ->
  lower_stmt cfg s st = OK (items, st') ->
  (forall w, ~ In (ITree w) items) /\ (forall x, In (ITok x) items -> stmt_may_tok s = true).
Proof.
  intros Hfx Hl. destruct (no_raw_all cfg Hfx) as (_ & _ & Hs & _).
  apply Forall_tok_ok_In. exact (Hs s st items st' Hl).
Qed.

Theorem no_raw_item_expr cfg e st i st' :
  fx_reject_dropped (cfg_fx cfg) = true ->
  lower_expr cfg e st = OK (i, st') ->
  (forall w, i <> ITree w) /\ (forall x, i = ITok x -> expr_may_tok e = true).
Proof.
  intros Hfx Hl. destruct (no_raw_all cfg Hfx) as (He & _ & _ & _).
  pose proof (He e st i st' Hl) as Hi. split.
  - intros w Hw. subst i. exact Hi.
  - intros x Hx. subst i. exact Hi.
Qed.

Lemma no_tree_has_tree items : Forall (tok_ok true) items -> has_tree items = false.
Proof.
  intros Hf. unfold has_tree. induction Hf as [|i r Hi Hr IH]; [reflexivity|].
  cbn [existsb]. rewrite IH. destruct i; cbn [tok_ok] in Hi; try reflexivity. destruct Hi.
Qed.

(* the argument lists of calls / macros / loads / stores never contain a raw tree: under the
   switch the `tree_in` flag handed to chk_hybrid_dep / resolve_hybrid is always false *)
Theorem no_raw_items_exprs cfg l st items st' :
  fx_reject_dropped (cfg_fx cfg) = true ->
  lower_exprs cfg l st = OK (items, st') ->
  (forall w, ~ In (ITree w) items) /\ has_tree items = false.
Proof.
  intros Hfx Hl. destruct (no_raw_all cfg Hfx) as (_ & Hes & _ & _).
  pose proof (Hes l st items st' Hl) as Hf. split.
  - apply (Forall_tok_ok_In true). exact Hf.
  - apply no_tree_has_tree. exact Hf.
Qed.

Lemma clean_not_dropped items :
  Forall (tok_ok false) items ->
  existsb (fun i => match i with ITree _ | ITok _ => true | _ => false end) items = false.
Proof.
  intros Hf. induction Hf as [|i r Hi Hr IH]; [reflexivity|].
  cbn [existsb]. rewrite IH. destruct i; cbn [tok_ok] in Hi; first [ reflexivity | discriminate Hi | destruct Hi ].
Qed.

(* T1 corollary: an accepted program without a string-literal expression statement drops nothing *)
Theorem nothing_dropped cfg prog i :
  fx_reject_dropped (cfg_fx cfg) = true ->
  tlower_info cfg prog = OK i ->
  has_string_stmt prog = false ->
  ti_dropped i = false.
Proof.
  intros Hfx Ht Hs. unfold tlower_info in Ht.
  destruct (lower_stmts cfg prog (init_state cfg)) as [[items s]|e] eqn:Hl; [| discriminate Ht].
  destruct (no_raw_all cfg Hfx) as (_ & _ & _ & Hss).
  pose proof (Hss prog _ _ _ Hl) as Hf. unfold has_string_stmt in Hs. rewrite Hs in Hf.
  pose proof (clean_not_dropped items Hf) as Hd.
  destruct (negb (st_nonempty s)); inversion Ht; subst i; cbn [ti_dropped]; exact Hd.
Qed.
Print Assumptions nothing_dropped.

(* translated completely or rejected *)
Corollary translated_or_rejected cfg prog :
  fx_reject_dropped (cfg_fx cfg) = true ->
  has_string_stmt prog = false ->
  match tlower_info cfg prog with OK i => ti_dropped i = false | Err _ => True end.
Proof.
  intros Hfx Hs. destruct (tlower_info cfg prog) as [i|e] eqn:Ht; [| exact I].
  exact (nothing_dropped cfg prog i Hfx Ht Hs).
Qed.

Lemma faithful_rejects : fx_reject_dropped faithful = true. Proof. reflexivity. Qed.
Lemma cfg_insn_rejects h : fx_reject_dropped (cfg_fx (cfg_insn h)) = true. Proof. reflexivity. Qed.

(* props/C15.silently_dropped p unfolds to the premise below (h = 0) *)
Theorem C15_all_programs h p :
  has_string_stmt p = false ->
  ~ match tlower_info (cfg_insn h) p with OK i => ti_dropped i = true | Err _ => False end.
Proof.
  intros Hs Hd. pose proof (translated_or_rejected (cfg_insn h) p (cfg_insn_rejects h) Hs) as Ht.
  destruct (tlower_info (cfg_insn h) p) as [i|e]; [| exact Hd].
  rewrite Ht in Hd. discriminate Hd.
Qed.
Print Assumptions C15_all_programs.

Theorem C15_unsupported_rejected h p :
  mentions_unsupported p = true -> exists msg, tlower_info (cfg_insn h) p = Err msg.
Proof. apply unsupported_rejected. apply cfg_insn_rejects. Qed.

(* the side condition of T1 is necessary: a string literal used as an expression statement IS a
   token item, in every configuration *)
Lemma string_stmt_is_tok cfg s st :
  lower_stmts cfg (SCons (SExpr (EOp (OString s))) SNil) st = OK ([ITok s], st).
Proof. reflexivity. Qed.

(* the final filter discards it without an error: { "abc"; } *)
Theorem string_stmt_dropped cfg s :
  exists i, tlower_info cfg (SCons (SExpr (EOp (OString s))) SNil) = OK i /\ ti_dropped i = true.
Proof. eexists. split; reflexivity. Qed.

(* { RdV = 1; "abc"; } under the configuration of the repository *)
Definition w_string : cstmts :=
  SCons (SExpr (EAssign AAssign (EOp (OReg "R" "d")) (EOp (ONum 1 false ""))))
 (SCons (SExpr (EOp (OString "abc"))) SNil).
Example string_stmt_refuted :
  has_string_stmt w_string = true /\ mentions_unsupported w_string = false /\
  match tlower_info (cfg_insn 0) w_string with OK i => ti_dropped i = true | Err _ => False end.
Proof. vm_compute. auto. Qed.

(* { 1 ? "abc" : 2; } : the live arm of a folded ?: is returned as it is *)
Definition w_cond_string : cstmts :=
  SCons (SExpr (ECond (EOp (ONum 1 false "")) (EOp (OString "abc")) (EOp (ONum 2 false "")))) SNil.
Example cond_string_refuted :
  has_string_stmt w_cond_string = true /\ mentions_unsupported w_cond_string = false /\
  match tlower_info (cfg_insn 0) w_cond_string with OK i => ti_dropped i = true | Err _ => False end.
Proof. vm_compute. auto. Qed.

(* if (RsV) { for (i = 0; i < 2; i++) { RdV = ({ break; RsV; }); } } *)
Definition nest3 (inner : cstmt) : cstmts :=
  SCons (SIf (EOp (OReg "R" "s"))
             (SBlock (SCons
                (SFor (SExpr (EAssign AAssign (EOp (OIdent "i")) (EOp (ONum 0 false ""))))
                      (SExpr (EBin BLt (EOp (OIdent "i")) (EOp (ONum 2 false ""))))
                      (Some (EPost true (EOp (OIdent "i"))))
                      (SBlock (SCons
                         (SExpr (EAssign AAssign (EOp (OReg "R" "d"))
                                   (EStmtExpr (SCons inner SNil) (SExpr (EOp (OReg "R" "s"))))))
                         SNil)))
                SNil))
             None)
        SNil.
Definition w_break3 : cstmts := nest3 SBreak.

Example break3_mentions : mentions_unsupported w_break3 = true.
Proof. vm_compute. reflexivity. Qed.
Example break3_rejected : tlower_info (cfg_insn 0) w_break3 = Err "Jump statement is not supported".
Proof. vm_compute. reflexivity. Qed.
(* the same by the general theorem, for every hybrid counter *)
Example break3_rejected_thm h : exists msg, tlower_info (cfg_insn h) w_break3 = Err msg.
Proof. apply C15_unsupported_rejected. exact break3_mentions. Qed.
(* control: the same nest around an ordinary statement is accepted, nothing dropped *)
Example nest3_control :
  match tlower_info (cfg_insn 0) (nest3 (SExpr (EAssign AAssign (EOp (OReg "R" "e")) (EOp (ONum 1 false "")))))
  with OK i => ti_dropped i = false | Err _ => False end.
Proof. vm_compute. reflexivity. Qed.

(* further positions, each decided by the general theorem (no evaluation of the transformer):
   comma inside a sub-routine argument; goto in an else branch; label in a for body; while inside a
   statement-expression inside a ?: arm; continue in the initialiser of a declaration; switch in a
   for-init; do-while under a cast under a store argument *)
Definition rs := EOp (OReg "R" "s").
Definition one := EOp (ONum 1 false "").
Example rejected_wherever h :
  (exists m, tlower_info (cfg_insn h) (SCons (SExpr (ECall "fcirc_add" (ECons (EComma rs one) ENil))) SNil) = Err m) /\
  (exists m, tlower_info (cfg_insn h) (SCons (SIf rs SEmpty (Some (SBlock (SCons (SGoto "l") SNil)))) SNil) = Err m) /\
  (exists m, tlower_info (cfg_insn h) (SCons (SFor SEmpty (SExpr rs) (Some one) (SLabel "l" SEmpty)) SNil) = Err m) /\
  (exists m, tlower_info (cfg_insn h)
     (SCons (SExpr (ECond rs (EStmtExpr (SCons (SWhile rs SEmpty) SNil) (SExpr one)) one)) SNil) = Err m) /\
  (exists m, tlower_info (cfg_insn h)
     (SCons (SDecl [TS_int] "x" (Some (EStmtExpr (SCons SContinue SNil) (SExpr one)))) SNil) = Err m) /\
  (exists m, tlower_info (cfg_insn h) (SCons (SFor (SSwitch rs SEmpty) (SExpr rs) (Some one) SEmpty) SNil) = Err m) /\
  (exists m, tlower_info (cfg_insn h)
     (SCons (SStore false 4 (ECons rs (ECons (ECast [TS_int] (EStmtExpr (SCons (SDo SEmpty rs) SNil) (SExpr one))) ENil))) SNil) = Err m).
Proof. repeat split; apply C15_unsupported_rejected; reflexivity. Qed.
