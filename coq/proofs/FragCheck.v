(* FragCheck: the fragments [pfrag] / [sfrag] / [sfrags] of ExprCorrect / StmtCorrect DECIDED by computation,
   and the packaged corollary [covered_correct]: for a concrete behaviour, one [vm_compute] of
   [covered h prog] yields the full simulation theorem for the configuration the real compiler has.

   - [ops_ss] : every operand of a program, in textual order; [imms_of] / [IM_of] : its immediate letters;
     [rw_of_prog] : the register-width environment that gives every operand handle the width demanded by
     the FIRST operand that uses the handle (RsV and RssV share ISA2REG(hi,'s'): mixing them fails the check).
   - [pfrag_check] / [sfrag_check] / [sfrags_check] follow the constructors of the fragments; every side
     condition has a boolean version with a reflection lemma [c = true <-> C].  Soundness AND completeness are proved.
   - [tinfo_res_eqb] : strict structural equality on [res tinfo] (RzIL.pure_eqb compares literals modulo
     their width, so it does not give Leibniz equality; [pure_seqb] / [effect_seqb] here do).
   - [covered] compares the translation under the real configuration [cfg_insn h] with the one under the
     configuration of the theorem, [cfg_thm h] = all repairs on, NO routine parameters.
     (NOTE: [cfg_params (cfg_insn h)] is NOT [[]]: an instruction body is compiled with the parameters
      pkt / hi / bundle.  tlower_correct wants [cfg_params cfg = []], hence the comparison is made against
      the configuration with the parameter list emptied; a behaviour that DECLARES a local named like one of
      the three is rejected by the real configuration and accepted by the other, so it is reported as not covered
      (pkt_not_covered); passing such a name on as text, as STORE_SLOT_CANCELLED(pkt, slot) does, is covered.)
     [covered_correct] returns the effect, the final hybrid counter h' (h <= h': one temporary h_tmp<n> per for loop)
     and the declared / valued locals D', V' the behaviour ends with.
   - [im_ok_b prog] decides StmtCorrect.im_ok for the immediate letters of the behaviour (none is named jump_flag,
     jump_target or h_tmp...).
   - Module CheckExamples has shipped-style behaviours shown covered by vm_compute (not one for every constructor of
     the fragments), the effect the real configuration emits for some of them, and executed runs (loads, macros,
     aliases, jumps, for loops); and behaviours found NOT covered (write to the PC alias; nested loops; loop variables
     that are not 32 bits wide; division; an operand handle used at two widths; a local named like a routine
     parameter ...). *)
From Coq Require Import ZArith NArith List Bool String Ascii Lia.
From RZ.lib Require Import BV PyHeap.
From RZ.sem Require Import RzIL CSem.
From RZ.gen Require Import TypeRules Resources.
From RZ.model Require Import Ast Types OpTables Lower Guards.
From RZ.proofs Require Import SeqLaws SortSound ExprCorrect StmtCorrect.
Import ListNotations.
Local Open Scope string_scope.
Local Open Scope list_scope.

Fixpoint ops_e (e : cexpr) : list operand :=
  match e with
  | EOp o => [o]
  | ECast _ a | EUn _ a | EPost _ a | EMember a _ | EPtrMember a _ | ECallEmpty a => ops_e a
  | EBin _ l r | EAssign _ l r | EComma l r | EIndex l r => ops_e l ++ ops_e r
  | ECond c t f => ops_e c ++ ops_e t ++ ops_e f
  | Ast.ECall _ args | EMacro _ args | ELoad _ _ args => ops_es args
  | EStmtExpr items last => ops_ss items ++ ops_s last
  | ESizeofT _ | EOther _ => []
  end
with ops_es (l : cexprs) : list operand :=
  match l with ENil => [] | ECons e t => ops_e e ++ ops_es t end
with ops_s (s : cstmt) : list operand :=
  match s with
  | SExpr e | SJump e | SReturn (Some e) => ops_e e
  | SDecl _ _ (Some e) => ops_e e
  | SIf c t None => ops_e c ++ ops_s t
  | SIf c t (Some f) => ops_e c ++ ops_s t ++ ops_s f
  | SFor i c None b => ops_s i ++ ops_s c ++ ops_s b
  | SFor i c (Some st) b => ops_s i ++ ops_s c ++ ops_e st ++ ops_s b
  | SBlock l => ops_ss l
  | SStore _ _ args => ops_es args
  | SWhile c b => ops_e c ++ ops_s b
  | SDo b c => ops_s b ++ ops_e c
  | SSwitch c b => ops_e c ++ ops_s b
  | SLabel _ b | SCase b => ops_s b
  | _ => []
  end
with ops_ss (l : cstmts) : list operand :=
  match l with SNil => [] | SCons s t => ops_s s ++ ops_ss t end.

Definition imms_of (prog : cstmts) : list string :=
  flat_map (fun o => match o with OImm l => [l] | _ => [] end) (ops_ss prog).
Definition IM_of (prog : cstmts) : string -> bool := fun l => existsb (String.eqb l) (imms_of prog).

(* the standard Hexagon widths of SINGLE register operands: predicates 8 bit, everything else 32 bit
   (= ExprCorrect.cls_w on the class of the handle) *)
Definition rw_std : regwidth := fun r => match r with RIsa cls _ _ => cls_w cls | _ => 32%N end.

(* the width an operand demands of its handle (ExprCorrect.dest_w: pairs are double width) *)
Definition demand_of (o : operand) : list (regop * N) :=
  match o with
  | OReg cls letters =>
      match access_of_letters letters with
      | Some acc => [(RIsa cls (substring 0 1 letters) false, dest_w cls acc)]
      | None => []
      end
  | ONewReg cls letters =>
      match access_of_letters letters with
      | Some acc => [(rop cls letters true, dest_w cls acc)]
      | None => []
      end
  | OAlias name new => [(alias_op name new, alias_w name)]
  | OExplicit name new => [(expl_op name new, expl_w name)]
  | _ => []
  end.
Definition demands (prog : cstmts) : list (regop * N) := flat_map demand_of (ops_ss prog).
(* each handle gets the width demanded by its first occurrence; handles the program does not use: rw_std *)
Definition rw_of_prog (prog : cstmts) : regwidth := fun r =>
  match find (fun d => regop_eqb r (fst d)) (demands prog) with Some d => snd d | None => rw_std r end.

(* Every boolean side condition [c] of the checkers has ONE lemma of the shape [c = true <-> C], where C is the
   premise of the fragment's constructors that c decides.  The lemmas form the rewrite set [frag]: rewriting with it
   turns the guard of a case of a checker into the premises of the constructor, in a hypothesis (soundness) or in
   the goal (completeness).
   [reflect] is one top-down pass with the set; autorewrite, which goes through the whole set again after every step,
   takes some twenty times as long on these guards. *)
#[local] Hint Rewrite andb_true_iff orb_true_iff negb_true_iff eqb_true_iff String.eqb_eq N.eqb_eq Nat.eqb_eq Z.eqb_eq Z.leb_le : frag.
Local Ltac reflect := try rewrite_strat (topdown (hints frag)).
Local Ltac reflect_in H := try rewrite_strat (topdown (hints frag)) in H.

Lemma is_some_iff {A} (o : option A) : match o with Some _ => true | None => false end = true <-> exists x, o = Some x.
Proof. destruct o; split; [eauto | reflexivity | discriminate | intros [x H]; discriminate H]. Qed.
Lemma is_none_iff {A} (o : option A) : match o with None => true | Some _ => false end = true <-> o = None.
Proof. destruct o; split; [discriminate | discriminate | reflexivity | reflexivity]. Qed.
Lemma existsb_eqb_In x l : existsb (String.eqb x) l = true <-> In x l.
Proof.
  rewrite existsb_exists. split.
  - intros [y [Hy He]]. apply String.eqb_eq in He. subst y. exact Hy.
  - intros H. exists x. split; [exact H | apply String.eqb_refl].
Qed.

Definition okw_b (w : N) : bool := (N.eqb w 8 || N.eqb w 16 || N.eqb w 32 || N.eqb w 64)%bool.
Lemma okw_b_iff w : okw_b w = true <-> okw w.
Proof. unfold okw_b, okw. reflect. tauto. Qed.

Definition dest_cls_b (cls : string) : bool := existsb (String.eqb cls) ["R"; "P"; "C"; "M"].
Lemma dest_cls_b_iff cls : dest_cls_b cls = true <-> dest_cls cls.
Proof. unfold dest_cls_b, dest_cls. rewrite existsb_eqb_In. cbn [In]. intuition congruence. Qed.

Definition reg_cls_b (new : bool) (cls : string) : bool := (dest_cls_b cls || (new && String.eqb cls "N"))%bool.
Lemma reg_cls_b_iff new cls : reg_cls_b new cls = true <-> reg_cls new cls.
Proof. unfold reg_cls_b, reg_cls. reflect. rewrite dest_cls_b_iff. tauto. Qed.

Definition reserved_b (IM : string -> bool) (x : string) : bool :=
  (String.eqb x "jump_flag" || String.eqb x "jump_target" || IM x || imm_cname x || is_htmp x)%bool.
Lemma reserved_b_iff IM x : reserved_b IM x = true <-> reserved IM x.
Proof. unfold reserved_b, reserved. reflect. tauto. Qed.
Lemma reserved_b_false IM x : reserved_b IM x = false <-> ~ reserved IM x.
Proof. rewrite <- reserved_b_iff. destruct (reserved_b IM x); split; intros H; congruence. Qed.

(* the immediate letters of a behaviour are not the names of JUMP's locals nor of the compiler's temporaries h_tmp<n>
   (decided on the list of letters: StmtCorrect.im_ok_l) *)
Definition im_ok_b (prog : cstmts) : bool := im_ok_l (imms_of prog).
Lemma im_ok_b_iff prog : im_ok_b prog = true <-> im_ok (IM_of prog).
Proof. apply im_ok_l_iff. Qed.

Definition cast_ty_of (ts : tyspec) : option (bool * N) :=
  match ts with
  | [TS_intN sg w] => if okw_b w then Some (sg, w) else None
  | [TS_int] => Some (true, 32%N)
  | [TS_unsigned] => Some (false, 32%N)
  | [TS_unsigned; TS_int] => Some (false, 32%N)
  | [TS_sizeN b sg] => if okw_b (b * 8) then Some (sg, (b * 8)%N) else None
  | _ => None
  end.
Lemma cast_ty_of_iff ts sg w : cast_ty_of ts = Some (sg, w) <-> cast_ty ts sg w.
Proof.
  unfold cast_ty. split.
  - destruct ts as [|[] [|[] [|]]]; try discriminate; cbn [cast_ty_of];
      try (destruct (okw_b _) eqn:Ew; [apply okw_b_iff in Ew | discriminate]); intros [= <- <-]; eauto 10.
  - intros [[-> Hw] | [[-> [-> ->]] | [[-> [-> ->]] | [[-> [-> ->]] | [b [-> [-> Hw]]]]]]]; cbn [cast_ty_of]; try reflexivity;
      apply okw_b_iff in Hw; rewrite Hw; reflexivity.
Qed.
(* the guard of a cast, as pfrag_check has it *)
Lemma cast_ok_iff ts : match cast_ty_of ts with Some _ => true | None => false end = true <-> exists sg w, cast_ty ts sg w.
Proof.
  rewrite is_some_iff. split.
  - intros [[sg w] H]. apply cast_ty_of_iff in H. eauto.
  - intros [sg [w H]]. apply cast_ty_of_iff in H. eauto.
Qed.
Lemma literal_ok_iff v hex suf :
  match literal_type v hex suf with Some _ => true | None => false end = true <-> exists t, literal_type v hex suf = Some t.
Proof. apply is_some_iff. Qed.

Definition decl_ty_of (ts : tyspec) : option (bool * N) :=
  match cast_ty_of ts with
  | Some r => Some r
  | None =>
      match ts with
      | [TS_sizeN b sg] => if okw_b (b * 8) then Some (sg, (b * 8)%N) else None
      | _ => None
      end
  end.
(* the second attempt of decl_ty_of never succeeds: cast_ty_of accepts sizeNs_t / sizeNu_t itself *)
Lemma decl_ty_of_eq ts : decl_ty_of ts = cast_ty_of ts.
Proof.
  unfold decl_ty_of. destruct (cast_ty_of ts) eqn:E; [reflexivity|].
  destruct ts as [|[] [|]]; try reflexivity. exact E.
Qed.
Lemma decl_ty_of_iff ts sg w : decl_ty_of ts = Some (sg, w) <-> decl_ty ts sg w.
Proof.
  rewrite decl_ty_of_eq, cast_ty_of_iff. unfold decl_ty. split; [auto|].
  intros [H | [b H]]; [exact H|]. right. right. right. right. exists b. exact H.
Qed.

(* strict equality of types, and of variable tables *)
Definition vtype_seqb (a b : vtype) : bool :=
  (Bool.eqb (vt_sg a) (vt_sg b) && N.eqb (vt_w a) (vt_w b) && Bool.eqb (vt_bool a) (vt_bool b) &&
   Bool.eqb (vt_void a) (vt_void b) && Bool.eqb (vt_ext a) (vt_ext b) && Bool.eqb (vt_float a) (vt_float b) &&
   Bool.eqb (vt_hyb a) (vt_hyb b) && Bool.eqb (vt_const a) (vt_const b) && Bool.eqb (vt_tok a) (vt_tok b))%bool.
Lemma vtype_seqb_iff a b : vtype_seqb a b = true <-> a = b.
Proof.
  unfold vtype_seqb. destruct a as [a1 a2 a3 a4 a5 a6 a7 a8 a9], b as [b1 b2 b3 b4 b5 b6 b7 b8 b9].
  cbn [vt_sg vt_w vt_bool vt_void vt_ext vt_float vt_hyb vt_const vt_tok].
  reflect. split.
  - intros H. decompose [and] H. subst. reflexivity.
  - intros [= -> -> -> -> -> -> -> -> ->]. repeat split.
Qed.

Definition ovtype_seqb (a b : option vtype) : bool :=
  match a, b with Some x, Some y => vtype_seqb x y | None, None => true | _, _ => false end.
Lemma ovtype_seqb_iff a b : ovtype_seqb a b = true <-> a = b.
Proof.
  destruct a as [x|], b as [y|]; cbn [ovtype_seqb]; [rewrite vtype_seqb_iff | | |]; intuition congruence.
Qed.

Fixpoint venv_eqb (a b : list (string * option vtype)) : bool :=
  match a, b with
  | [], [] => true
  | (x, t) :: a', (y, u) :: b' => (String.eqb x y && ovtype_seqb t u && venv_eqb a' b')%bool
  | _, _ => false
  end.
Lemma venv_eqb_iff a : forall b, venv_eqb a b = true <-> a = b.
Proof.
  induction a as [|[x t] a IH]; intros [|[y u] b]; cbn [venv_eqb]; try (split; discriminate); [tauto|].
  rewrite !andb_true_iff, String.eqb_eq, ovtype_seqb_iff, IH. intuition congruence.
Qed.

(* an integer type of a width of the fragment (the guard of intvar_b, and of the first assignment of a declared local) *)
Lemma int_ty_b_iff t :
  (vtype_seqb t (ty_int (vt_sg t) (vt_w t)) && okw_b (vt_w t))%bool = true <-> exists sg w, t = ty_int sg w /\ okw w.
Proof.
  rewrite andb_true_iff, vtype_seqb_iff, okw_b_iff. split.
  - intros [Ht Hw]. eauto.
  - intros [sg [w [-> Hw]]]. auto.
Qed.

(* a declared integer local of a width of the fragment *)
Definition intvar_b (V : list (string * option vtype)) (x : string) : bool :=
  match lookup x V with
  | Some (Some t) => (vtype_seqb t (ty_int (vt_sg t) (vt_w t)) && okw_b (vt_w t))%bool
  | _ => false
  end.
Lemma intvar_b_iff V x : intvar_b V x = true <-> exists sg w, lookup x V = Some (Some (ty_int sg w)) /\ okw w.
Proof.
  unfold intvar_b. destruct (lookup x V) as [[t|]|].
  - rewrite int_ty_b_iff. split; intros [sg [w [H Hw]]]; exists sg, w; split; congruence.
  - split; [discriminate | intros [sg [w [H _]]]; discriminate H].
  - split; [discriminate | intros [sg [w [H _]]]; discriminate H].
Qed.

(* a 32 bit local with a value (the variable of a for loop) *)
Definition int32var_b (V : list (string * option vtype)) (x : string) : bool :=
  match lookup x V with
  | Some (Some t) => vtype_seqb t (ty_int (vt_sg t) 32)
  | _ => false
  end.
Lemma int32var_b_iff V x : int32var_b V x = true <-> exists sg, lookup x V = Some (Some (ty_int sg 32)).
Proof.
  unfold int32var_b. destruct (lookup x V) as [[t|]|].
  - rewrite vtype_seqb_iff. split; [intros ->; eauto | intros [sg [= ->]]; reflexivity].
  - split; [discriminate | intros [sg H]; discriminate H].
  - split; [discriminate | intros [sg H]; discriminate H].
Qed.

Definition unop_ok (u : Ast.unop) : bool := match u with UNot | UMinus | ULNot => true | _ => false end.
Lemma unop_ok_iff u : unop_ok u = true <-> (u = UNot \/ u = UMinus \/ u = ULNot).
Proof. destruct u; cbn [unop_ok]; intuition discriminate. Qed.

Definition binop_ok (b : Ast.binop) : bool := match b with Ast.BDiv | Ast.BMod => false | _ => true end.
Lemma binop_ok_iff b : binop_ok b = true <-> (is_folding_op b \/ is_plain_op b).
Proof.
  unfold is_folding_op, is_plain_op, is_cmp. destruct b; cbn [binop_ok]; split; intros H; auto 20; try discriminate H;
    intuition discriminate.
Qed.

Definition casg_ok (a : asgop) : bool := match a with AAdd | ASub | AMul | AAnd | AOr | AXor | AShl | AShr => true | _ => false end.
Lemma casg_ok_iff a : casg_ok a = true <-> ((a = AAdd \/ a = ASub \/ a = AMul) \/ (a = AAnd \/ a = AOr \/ a = AXor) \/ (a = AShl \/ a = AShr)).
Proof. destruct a; cbn [casg_ok]; intuition discriminate. Qed.
(* the two guards sfrag_check puts on the operator of an assignment *)
Lemma is_assign_iff a : match a with AAssign => true | _ => false end = true <-> a = AAssign.
Proof. destruct a; split; try discriminate; reflexivity. Qed.
Lemma asg_or_casg_iff a : match a with AAssign => true | _ => casg_ok a end = true <-> a = AAssign \/ casg_ok a = true.
Proof. destruct a; cbn [casg_ok]; intuition discriminate. Qed.

Definition alias_b (rw : regwidth) (name : string) (new : bool) : bool :=
  (existsb (String.eqb name) alias_names && N.eqb (rw (alias_op name new)) (alias_w name))%bool.
Lemma alias_b_iff rw name new : alias_b rw name new = true <-> In name alias_names /\ rw (alias_op name new) = alias_w name.
Proof. unfold alias_b. rewrite andb_true_iff, N.eqb_eq, existsb_eqb_In. reflexivity. Qed.

Definition expl_b (rw : regwidth) (name : string) (new : bool) : bool :=
  (existsb (String.eqb name) expl_names && N.eqb (rw (expl_op name new)) (expl_w name))%bool.
Lemma expl_b_iff rw name new : expl_b rw name new = true <-> In name expl_names /\ rw (expl_op name new) = expl_w name.
Proof. unfold expl_b. rewrite andb_true_iff, N.eqb_eq, existsb_eqb_In. reflexivity. Qed.

Definition implicit_b (x : string) : bool := existsb (String.eqb x) ["EA"; "i"; "j"; "k"].
Lemma implicit_b_iff x : implicit_b x = true <-> implicit_name x.
Proof. unfold implicit_b, implicit_name. rewrite existsb_eqb_In. cbn [In]. intuition congruence. Qed.

Definition raw_name_b (IM : string -> bool) (V : list (string * option vtype)) (x : string) : bool :=
  (match lookup x V with None => true | Some _ => false end && negb (IM x) && negb (implicit_b x) && negb (is_htmp x))%bool.
Lemma raw_name_b_iff IM V x : raw_name_b IM V x = true <-> raw_name IM V x.
Proof.
  unfold raw_name_b, raw_name. rewrite !andb_true_iff, !negb_true_iff, is_none_iff, <- implicit_b_iff.
  destruct (implicit_b x); intuition congruence.
Qed.

Definition mac1_b (m : string) : bool := existsb (String.eqb m) ["bswap16"; "bswap32"; "bswap64"].
Definition mac3_b (m : string) : bool := existsb (String.eqb m) ["extract32"; "extract64"; "sextract64"].
Definition mac4_b (m : string) : bool := existsb (String.eqb m) ["deposit32"; "deposit64"].
Lemma mac1_b_iff m : mac1_b m = true <-> is_mac1 m.
Proof. unfold mac1_b, is_mac1. rewrite existsb_eqb_In. cbn [In]. intuition congruence. Qed.
Lemma mac3_b_iff m : mac3_b m = true <-> is_mac3 m.
Proof. unfold mac3_b, is_mac3. rewrite existsb_eqb_In. cbn [In]. intuition congruence. Qed.
Lemma mac4_b_iff m : mac4_b m = true <-> is_mac4 m.
Proof. unfold mac4_b, is_mac4. rewrite existsb_eqb_In. cbn [In]. intuition congruence. Qed.

(* a register operand whose handle r has the width the operand demands (regw_b and newregw_b differ in r) *)
Lemma handle_w_iff (rw : regwidth) cls r (o : option access) :
  match o with Some acc => N.eqb (rw r) (dest_w cls acc) | None => false end = true <->
  exists acc, o = Some acc /\ rw r = dest_w cls acc.
Proof.
  destruct o as [acc|].
  - rewrite N.eqb_eq. split; [eauto|]. intros [acc' [[= <-] H]]. exact H.
  - split; [discriminate|]. intros [acc' [H _]]. discriminate H.
Qed.
Definition regw_b (rw : regwidth) (cls letters : string) : bool :=
  match access_of_letters letters with
  | Some acc => N.eqb (rw (RIsa cls (substring 0 1 letters) false)) (dest_w cls acc)
  | None => false
  end.
Lemma regw_b_iff rw cls letters :
  regw_b rw cls letters = true <->
  exists acc, access_of_letters letters = Some acc /\ rw (RIsa cls (substring 0 1 letters) false) = dest_w cls acc.
Proof. apply handle_w_iff. Qed.
Definition newregw_b (rw : regwidth) (cls letters : string) : bool :=
  match access_of_letters letters with
  | Some acc => N.eqb (rw (rop cls letters true)) (dest_w cls acc)
  | None => false
  end.
Lemma newregw_b_iff rw cls letters :
  newregw_b rw cls letters = true <->
  exists acc, access_of_letters letters = Some acc /\ rw (rop cls letters true) = dest_w cls acc.
Proof. apply handle_w_iff. Qed.

#[local] Hint Rewrite okw_b_iff dest_cls_b_iff reg_cls_b_iff reserved_b_iff reserved_b_false cast_ok_iff literal_ok_iff
  venv_eqb_iff intvar_b_iff int32var_b_iff unop_ok_iff binop_ok_iff is_assign_iff asg_or_casg_iff casg_ok_iff
  alias_b_iff expl_b_iff implicit_b_iff raw_name_b_iff mac1_b_iff mac3_b_iff mac4_b_iff regw_b_iff newregw_b_iff : frag.

(* a guarded result: [if c then o else None] *)
Lemma guard_inv {A} (c : bool) (o : option A) y : (if c then o else None) = Some y -> c = true /\ o = Some y.
Proof. destruct c; [auto | discriminate]. Qed.
Lemma guard_intro {A} (c : bool) (o o' : option A) y : c = true -> o = Some y -> (if c then o else o') = Some y.
Proof. intros -> ->. reflexivity. Qed.
(* H : (if c then Some (D1, V1) else None) = Some (D', V'):  D', V' are replaced by D1, V1, and H becomes what c reflects *)
Local Ltac open_guard H := apply guard_inv in H; destruct H as [H [= <- <-]]; reflect_in H.
(* the converse step: the goal (if c then o else _) = Some y becomes o = Some y, once what c reflects is at hand *)
Local Ltac close_guard := apply guard_intro; [reflect; repeat split; eauto 6 | try reflexivity].

Section Check.
  Variable rw : regwidth.
  Variable IM : string -> bool.

  Fixpoint pfrag_check (V : list (string * option vtype)) (e : cexpr) {struct e} : bool :=
    match e with
    | EOp (OIdent x) => intvar_b V x
    | EOp (ONum v hex suf) =>
        (Z.leb 0 v && match literal_type v hex suf with Some _ => true | None => false end)%bool
    | EOp (OReg cls letters) => (dest_cls_b cls && regw_b rw cls letters)%bool
    | EOp (ONewReg cls letters) => (reg_cls_b true cls && newregw_b rw cls letters)%bool
    | EOp (OImm l) => IM l
    | EOp (OAlias name new) => (alias_b rw name new || (String.eqb name "PC" && negb new))%bool
    | EOp (OExplicit name new) => expl_b rw name new
    | ECast ts a =>
        (match cast_ty_of ts with Some _ => true | None => false end &&
         (pfrag_check V a ||
          match a with ELoad _ lw (ECons x ENil) => okw_b lw && pfrag_check V x | _ => false end))%bool
    | EUn u a => (unop_ok u && pfrag_check V a)%bool
    | EBin b l r => (binop_ok b && pfrag_check V l && pfrag_check V r)%bool
    | ECond c t f => (pfrag_check V c && pfrag_check V t && pfrag_check V f)%bool
    | Ast.ECall f (ECons a ENil) => (String.eqb f "sizeof" && pfrag_check V a)%bool
    | EMacro m (ECons x ENil) => (mac1_b m && pfrag_check V x)%bool
    | EMacro m (ECons x (ECons s (ECons l ENil))) => (mac3_b m && pfrag_check V x && pfrag_check V s && pfrag_check V l)%bool
    | EMacro m (ECons x (ECons s (ECons l (ECons f ENil)))) =>
        (mac4_b m && pfrag_check V x && pfrag_check V s && pfrag_check V l && pfrag_check V f)%bool
    | _ => false
    end.

  Definition carg_b (D V : list (string * option vtype)) (e : cexpr) : bool :=
    (pfrag_check V e || match e with EOp (OIdent x) => raw_name_b IM D x | _ => false end)%bool.

  Definition fresh_b (D : list (string * option vtype)) (x : string) : bool :=
    match lookup x D with None => true | Some _ => false end.

  (* D = the declared locals, V = those that have a value *)
  Fixpoint sfrag_check (D V : list (string * option vtype)) (s : cstmt) {struct s}
    : option (list (string * option vtype) * list (string * option vtype)) :=
    match s with
    | SExpr (Ast.ECall f (ECons a (ECons b ENil))) =>
        if (String.eqb f ssc_name && carg_b D V a && carg_b D V b)%bool then Some (D, V) else None
    | SExpr (EAssign a (EOp (OReg cls letters)) e) =>
        if ((match a with AAssign => true | _ => casg_ok a end) && dest_cls_b cls && regw_b rw cls letters && pfrag_check V e)%bool
        then Some (D, V) else None
    | SExpr (EAssign a (EOp (OAlias name new)) e) =>
        if ((match a with AAssign => true | _ => false end) && alias_b rw name new && pfrag_check V e)%bool then Some (D, V) else None
    | SExpr (EAssign a (EOp (OExplicit name new)) e) =>
        if ((match a with AAssign => true | _ => false end) && expl_b rw name new && pfrag_check V e)%bool then Some (D, V) else None
    | SExpr (EAssign a (EOp (OImm l)) e) =>
        if ((match a with AAssign => true | _ => false end) && IM l && pfrag_check V e)%bool then Some (D, V) else None
    | SExpr (EAssign a (EOp (OIdent x)) e) =>
        if ((match a with AAssign => true | _ => casg_ok a end) && intvar_b V x && pfrag_check V e)%bool
        then Some (D, V)
        else if ((match a with AAssign => true | _ => false end) && fresh_b V x && pfrag_check V e)%bool then
          match lookup x D with
          | Some (Some t) =>                           (* the first assignment of a local declared without initialiser *)
              if (vtype_seqb t (ty_int (vt_sg t) (vt_w t)) && okw_b (vt_w t))%bool
              then Some (D, V ++ [(x, Some (ty_int (vt_sg t) (vt_w t)))]) else None
          | Some None => None
          | None =>                                    (* the first assignment of EA / i / j / k *)
              if (implicit_b x && negb (reserved_b IM x))%bool
              then Some (D ++ [(x, Some (ty_int false 32))], V ++ [(x, Some (ty_int false 32))]) else None
          end
        else None
    | SExpr (EOp (OImm l)) => if IM l then Some (D, V) else None      (* (uiV); *)
    | SDecl ts x (Some e) =>
        match decl_ty_of ts with
        | Some (sg, w) =>
            if (fresh_b D x && negb (reserved_b IM x) && pfrag_check V e)%bool
            then Some (D ++ [(x, Some (ty_int sg w))], V ++ [(x, Some (ty_int sg w))]) else None
        | None => None
        end
    | SDecl ts x None =>
        match decl_ty_of ts with
        | Some (sg, w) =>
            if (fresh_b D x && negb (reserved_b IM x))%bool then Some (D ++ [(x, Some (ty_int sg w))], V) else None
        | None => None
        end
    | SEmpty => Some (D, V)
    | SNop => Some (D, V)
    | SCancel => Some (D, V)
    | SStore sg w (ECons a (ECons v ENil)) =>
        if (okw_b w && pfrag_check V a && pfrag_check V v)%bool then Some (D, V) else None
    | SJump e => if pfrag_check V e then Some (D, V) else None
    | SBlock l => sfrags_check D V l
    | SIf c t None =>
        if pfrag_check V c then
          match sfrag_check D V t with
          | Some (D1, V1) => if (venv_eqb D1 D && venv_eqb V1 V)%bool then Some (D, V) else None
          | None => None
          end
        else None
    | SIf c t (Some f) =>
        if pfrag_check V c then
          match sfrag_check D V t, sfrag_check D V f with
          | Some (D1, V1), Some (D2, V2) =>
              if (venv_eqb D1 D && venv_eqb D2 D && venv_eqb V2 V1)%bool then Some (D, V1) else None
          | _, _ => None
          end
        else None
    | SFor i (SExpr c) (Some (EPost inc (EOp (OIdent x)))) b =>      (* for (i = e; c; i++) body *)
        match i with
        | SExpr _ =>
            match sfrag_check D V i with
            | Some (D1, V1) =>
                if (pfrag_check V1 c && int32var_b V1 x && noloop b)%bool then
                  match sfrag_check D1 V1 b with
                  | Some (D2, V2) => if (venv_eqb D2 D1 && venv_eqb V2 V1)%bool then Some (D1, V1) else None
                  | None => None
                  end
                else None
            | None => None
            end
        | _ => None
        end
    | _ => None
    end
  with sfrags_check (D V : list (string * option vtype)) (l : cstmts) {struct l}
    : option (list (string * option vtype) * list (string * option vtype)) :=
    match l with
    | SNil => Some (D, V)
    | SCons s t => match sfrag_check D V s with Some (D1, V1) => sfrags_check D1 V1 t | None => None end
    end.

  Theorem pfrag_check_sound : forall V e, pfrag_check V e = true -> pfrag rw IM V e.
  Proof.
    intros V. fix IH 1. intros e.
    destruct e as [o | t e | u e | b e1 e2 | e1 e2 e3 | a l r | inc e | f args | m args | sg w args | items last
                   | l r | a i | a f | a f | a | t | what]; cbn [pfrag_check]; try discriminate.
    - destruct o as [cls letters | cls letters | name new | name new | l | v hex suf | x | |]; try discriminate;
        intros H; reflect_in H.
      + destruct H as [Hc [acc [Ha Hw]]]. eapply pf_reg; eassumption.
      + destruct H as [Hc [acc [Ha Hw]]]. eapply pf_newreg; eassumption.
      + destruct H as [Hin Hw]. eapply pf_expl; eassumption.
      + destruct H as [[Hin Hw] | [-> ->]]; [eapply pf_alias; eassumption | apply pf_pc].
      + eapply pf_imm; eassumption.
      + destruct H as [Hv [t Hl]]. eapply pf_num; eassumption.
      + destruct H as [sg [w [Hl Hw]]]. eapply pf_ident; eassumption.
    - (* a cast, of an expression or of a load *)
      intros H. reflect_in H. destruct H as [[sg [w Hts]] [He | He]].
      + eapply pf_cast; eauto.
      + destruct e as [| | | | | | | | | lsg lw [|x [|y r]] | | | | | | | |]; try discriminate He.
        reflect_in He. destruct He as [Hw Hx]. eapply pf_load; eauto.
    - intros H. reflect_in H. destruct H as [Hu He]. eapply pf_un; eauto.
    - intros H. reflect_in H. destruct H as [[Hb H1] H2]. eapply pf_bin; eauto.
    - intros H. reflect_in H. destruct H as [[H1 H2] H3]. eapply pf_cond; eauto.
    - (* sizeof *)
      destruct args as [|x [|y r]]; try discriminate.
      intros H. reflect_in H. destruct H as [-> Hx]. eapply pf_sizeof; eauto.
    - (* the macros, by arity *)
      destruct args as [|x [|s [|l [|f [|g r]]]]]; try discriminate; intros H; reflect_in H.
      + destruct H as [Hm Hx]. eapply pf_mac1; eauto.
      + destruct H as [[[Hm Hx] Hs] Hl]. eapply pf_mac3; eauto.
      + destruct H as [[[[Hm Hx] Hs] Hl] Hf]. eapply pf_mac4; eauto.
  Qed.

  (* the guard of every case is the conjunction of the reflected premises (and of the induction hypotheses) *)
  Theorem pfrag_check_complete : forall V e, pfrag rw IM V e -> pfrag_check V e = true.
  Proof. intros V e H. induction H; cbn [pfrag_check]; reflect; eauto 8. Qed.

  Lemma pfrag_check_iff V e : pfrag_check V e = true <-> pfrag rw IM V e.
  Proof. split; [apply pfrag_check_sound | apply pfrag_check_complete]. Qed.

  Lemma carg_b_iff D V e : carg_b D V e = true <-> carg rw IM D V e.
  Proof.
    unfold carg_b. rewrite orb_true_iff, pfrag_check_iff. split.
    - intros [H | H]; [eapply ca_expr; eassumption|].
      destruct e as [[]| | | | | | | | | | | | | | | | |]; try discriminate H. apply ca_raw. apply raw_name_b_iff. exact H.
    - intros [x Hx | e0 He]; [right; apply raw_name_b_iff; exact Hx | left; exact He].
  Qed.

  Lemma fresh_b_iff D x : fresh_b D x = true <-> lookup x D = None.
  Proof. apply is_none_iff. Qed.

  Hint Rewrite pfrag_check_iff carg_b_iff fresh_b_iff : frag.

  Definition sound_s (s : cstmt) : Prop := forall D V D' V', sfrag_check D V s = Some (D', V') -> sfrag rw IM D V s D' V'.
  Definition sound_ss (l : cstmts) : Prop := forall D V D' V', sfrags_check D V l = Some (D', V') -> sfrags rw IM D V l D' V'.

  Lemma sound_expr_stmt e : sound_s (SExpr e).
  Proof.
    intros D V D' V'. cbn [sfrag_check].
    destruct e as [o0 | | | | | a l r | | f args | | | | | | | | | |]; try discriminate.
    - (* (uiV); *)
      destruct o0 as [| | | | l0 | | | |]; try discriminate. intros H. open_guard H. eapply sf_expr_imm; eassumption.
    - (* an assignment, by its left-hand side *)
      destruct l as [o| | | | | | | | | | | | | | | | |]; try discriminate.
      destruct o as [cls letters | | name new | name new | l0 | | x | |]; try discriminate; intros H.
      + open_guard H. destruct H as [[[Ha Hc] [acc [Hacc Hw]]] He].
        destruct Ha as [-> | [Ha | [Ha | Ha]]];
          [eapply sf_asg_reg | eapply sf_casg_reg | eapply sf_basg_reg | eapply sf_sasg_reg]; eassumption.
      + open_guard H. destruct H as [[-> [Hin Hw]] He]. eapply sf_asg_expl; eassumption.
      + open_guard H. destruct H as [[-> [Hin Hw]] He]. eapply sf_asg_alias; eassumption.
      + open_guard H. destruct H as [[-> Hl] He]. eapply sf_asg_imm; eassumption.
      + match type of H with (if ?c then _ else _) = _ => destruct c eqn:E1 end.
        * (* a local that has a value *)
          injection H as <- <-. reflect_in E1. destruct E1 as [[Ha [sg [w [Hl Hw]]]] He].
          destruct Ha as [-> | [Ha | [Ha | Ha]]];
            [eapply sf_asg_var | eapply sf_casg_var | eapply sf_basg_var | eapply sf_sasg_var]; eassumption.
        * (* the first value of a local *)
          clear E1. apply guard_inv in H. destruct H as [E2 H]. reflect_in E2. destruct E2 as [[-> Hv] He].
          destruct (lookup x D) as [[t|]|] eqn:El; try discriminate H; apply guard_inv in H; destruct H as [H [= <- <-]].
          -- apply int_ty_b_iff in H. destruct H as [sg [w [-> Hw]]]. eapply sf_asg_first; eassumption.
          -- reflect_in H. destruct H as [Hi Hr]. eapply sf_asg_implicit; eassumption.
    - (* STORE_SLOT_CANCELLED(a, b); *)
      destruct args as [|a [|b [|c r]]]; try discriminate.
      intros H. open_guard H. destruct H as [[-> Ha] Hb]. eapply sf_ssc; eassumption.
  Qed.

  Lemma sound_decl ts x init : sound_s (SDecl ts x init).
  Proof.
    intros D V D' V' H. cbn [sfrag_check] in H.
    destruct init as [e|]; (destruct (decl_ty_of ts) as [[sg w]|] eqn:Ed; [apply decl_ty_of_iff in Ed | discriminate H]); open_guard H.
    - destruct H as [[Hx Hr] He]. eapply sf_decl; eassumption.
    - destruct H as [Hx Hr]. eapply sf_decl0; eassumption.
  Qed.
  Lemma sound_store sg w args : sound_s (SStore sg w args).
  Proof.
    intros D V D' V' H. cbn [sfrag_check] in H. destruct args as [|a [|v [|x0 r]]]; try discriminate H.
    open_guard H. destruct H as [[Hw Ha] Hv]. eapply sf_store; eassumption.
  Qed.
  (* the branch leaves the declared and the valued locals as they were *)
  Lemma sound_if c t : sound_s t -> sound_s (SIf c t None).
  Proof.
    intros IHt D V D' V' H. cbn [sfrag_check] in H. apply guard_inv in H. destruct H as [Hc H]. apply pfrag_check_sound in Hc.
    destruct (sfrag_check D V t) as [[D1 V1]|] eqn:Et; [apply IHt in Et | discriminate H].
    open_guard H. destruct H as [-> ->]. eapply sf_if; eassumption.
  Qed.
  (* the branches leave the declared locals as they were, and both give a value to the same ones *)
  Lemma sound_ifelse c t f : sound_s t -> sound_s f -> sound_s (SIf c t (Some f)).
  Proof.
    intros IHt IHf D V D' V' H. cbn [sfrag_check] in H. apply guard_inv in H. destruct H as [Hc H]. apply pfrag_check_sound in Hc.
    destruct (sfrag_check D V t) as [[D1 V1]|] eqn:Et; [apply IHt in Et | discriminate H].
    destruct (sfrag_check D V f) as [[D2 V2]|] eqn:Ef; [apply IHf in Ef | discriminate H].
    open_guard H. destruct H as [[-> ->] ->]. eapply sf_ifelse; eassumption.
  Qed.
  Lemma sound_for i c st b : sound_s b -> sound_s (SFor i c st b).
  Proof.
    intros IHb D V D' V' H. cbn [sfrag_check] in H.
    destruct c as [c |  |  |  |  |  |  |  |  |  |  |  |  |  |  |  |  |  |  | ]; try discriminate H.
    destruct st as [[ |  |  |  |  |  | inc [[ |  |  |  |  |  | x |  | ] |  |  |  |  |  |  |  |  |  |  |  |  |  |  |  |  | ] |  |  |  |  |  |  |  |  |  |  | ] | ]; try discriminate H.
    destruct i as [e0 |  |  |  |  |  |  |  |  |  |  |  |  |  |  |  |  |  |  | ]; try discriminate H.
    destruct (sfrag_check D V (SExpr e0)) as [[D1 V1]|] eqn:E0; [apply sound_expr_stmt in E0 | discriminate H].
    apply guard_inv in H. destruct H as [Hg H]. reflect_in Hg. destruct Hg as [[Hc [sg Hl]] Hn].
    destruct (sfrag_check D1 V1 b) as [[D2 V2]|] eqn:Eb; [apply IHb in Eb | discriminate H].
    open_guard H. destruct H as [-> ->]. eapply sf_for; eassumption.
  Qed.

  (* (the Scheme of Ast gives no induction hypothesis for the else-branch, which sits under an option: direct
     mutual structural recursion.  The statement forms are dealt with by the lemmas above, which take the soundness of the
     check on the sub-statements as hypotheses: the recursive definition stays small, and so does its guard check.) *)
  Lemma sfrag_check_sound_s : forall s, sound_s s
  with sfrag_check_sound_ss : forall l, sound_ss l.
  Proof.
    - intros s.
      destruct s as [e | | ts x init | what | c t [f|] | i c st b | l | sg w args | e | | | e | c b | b c | c b | lb b | b | lb | |];
        try (intros D V D' V' H; cbn [sfrag_check] in H; discriminate H).
      + apply sound_expr_stmt.
      + intros D V D' V' H. injection H as <- <-. apply sf_empty.
      + apply sound_decl.
      + exact (sound_ifelse c t f (sfrag_check_sound_s t) (sfrag_check_sound_s f)).
      + exact (sound_if c t (sfrag_check_sound_s t)).
      + exact (sound_for i c st b (sfrag_check_sound_s b)).
      + intros D V D' V' H. exact (sf_block rw IM D V l D' V' (sfrag_check_sound_ss l D V D' V' H)).
      + apply sound_store.
      + intros D V D' V' H. cbn [sfrag_check] in H. open_guard H. exact (sf_jump rw IM D V e H).
      + intros D V D' V' H. injection H as <- <-. apply sf_nop.
      + intros D V D' V' H. injection H as <- <-. apply sf_cancel.
    - intros l. destruct l as [|s t]; intros D V D' V' H; cbn [sfrags_check] in H.
      + injection H as <- <-. apply sfs_nil.
      + destruct (sfrag_check D V s) as [[D1 V1]|] eqn:Es; [|discriminate H].
        exact (sfs_cons rw IM D V s D1 V1 t D' V' (sfrag_check_sound_s s D V D1 V1 Es) (sfrag_check_sound_ss t D1 V1 D' V' H)).
  Qed.

  Theorem sfrag_check_sound : forall D V s D' V', sfrag_check D V s = Some (D', V') -> sfrag rw IM D V s D' V'.
  Proof. intros D V s D' V'. apply sfrag_check_sound_s. Qed.
  Theorem sfrags_check_sound : forall D V l D' V', sfrags_check D V l = Some (D', V') -> sfrags rw IM D V l D' V'.
  Proof. intros D V l D' V'. apply sfrag_check_sound_ss. Qed.

  Lemma intvar_b_fresh V x : lookup x V = None -> intvar_b V x = false.
  Proof. intros H. unfold intvar_b. rewrite H. reflexivity. Qed.

  (* By induction on the derivation.  For most constructors the checker's case is one guard, the conjunction of the reflected
     premises; the others follow. *)
  Lemma sfrag_check_complete_both :
    (forall D V s D' V', sfrag rw IM D V s D' V' -> sfrag_check D V s = Some (D', V')) /\
    (forall D V l D' V', sfrags rw IM D V l D' V' -> sfrags_check D V l = Some (D', V')).
  Proof.
    apply sfrag_mutind; cbn [sfrag_check sfrags_check]; try solve [reflexivity | intros; close_guard].
    - (* sf_asg_first *)
      intros D V x sg w e HlD HlV Hw He. rewrite (intvar_b_fresh V x HlV), HlD. cbn [andb]. close_guard.
      apply guard_intro; [apply int_ty_b_iff; eauto | reflexivity].
    - (* sf_asg_implicit *)
      intros D V x e Hi HlD HlV Hr He. rewrite (intvar_b_fresh V x HlV), HlD. cbn [andb]. close_guard. close_guard.
    - (* sf_decl *) intros D V ts sg w x e Hd Hl Hr He. apply decl_ty_of_iff in Hd. rewrite Hd. close_guard.
    - (* sf_decl0 *) intros D V ts sg w x Hd Hl Hr. apply decl_ty_of_iff in Hd. rewrite Hd. close_guard.
    - (* sf_block *) intros D V l D' V' _ IH. exact IH.
    - (* sf_if *) intros D V c t Hc _ IHt. rewrite IHt. close_guard. close_guard.
    - (* sf_ifelse *) intros D V c t f V1 Hc _ IHt _ IHf. rewrite IHt, IHf. close_guard. close_guard.
    - (* sf_for *) intros D V e0 D1 V1 c inc i sg b _ IH0 Hc Hi _ IHb Hn. rewrite IH0. close_guard. rewrite IHb. close_guard.
    - (* sfs_cons *) intros D V s D1 V1 l D2 V2 _ IHs _ IHl. rewrite IHs. exact IHl.
  Qed.
End Check.

Theorem sfrag_check_complete rw IM D V s D' V' : sfrag rw IM D V s D' V' -> sfrag_check rw IM D V s = Some (D', V').
Proof. apply (proj1 (sfrag_check_complete_both rw IM)). Qed.
Theorem sfrags_check_complete rw IM D V l D' V' : sfrags rw IM D V l D' V' -> sfrags_check rw IM D V l = Some (D', V').
Proof. apply (proj2 (sfrag_check_complete_both rw IM)). Qed.

Print Assumptions pfrag_check_sound.
Print Assumptions sfrag_check_sound.
Print Assumptions sfrags_check_sound.
Print Assumptions sfrags_check_complete.

(* RzIL.pure_eqb identifies PBv s w v and PBv s w v' when v and v' agree modulo 2^w: it is an equivalence
   coarser than Leibniz equality.  The comparisons below are strict. *)
Lemma regop_eqb_sound a b : regop_eqb a b = true -> a = b.
Proof. destruct a, b; cbn [regop_eqb]; try discriminate; reflect; intuition congruence. Qed.

Lemma unop_eqb_sound a b : unop_eqb a b = true -> a = b.
Proof. destruct a, b; cbn [unop_eqb]; try discriminate; reflexivity. Qed.
Lemma binop_tag_inj a b : N.eqb (binop_tag a) (binop_tag b) = true -> a = b.
Proof. destruct a, b; cbn [binop_tag]; intros H; try reflexivity; discriminate H. Qed.
Lemma cmpop_tag_inj a b : N.eqb (cmpop_tag a) (cmpop_tag b) = true -> a = b.
Proof. destruct a, b; cbn [cmpop_tag]; intros H; try reflexivity; discriminate H. Qed.

Fixpoint pure_seqb (a b : pure) {struct a} : bool :=
  match a, b with
  | PBv s w v, PBv s' w' v' => Bool.eqb s s' && N.eqb w w' && Z.eqb v v'
  | PBool x, PBool y => Bool.eqb x y
  | PVarL x, PVarL y => String.eqb x y
  | PVarLP x, PVarLP y => String.eqb x y
  | PLet x e c, PLet x' e' c' => String.eqb x x' && pure_seqb e e' && pure_seqb c c'
  | PReg r n, PReg r' n' => regop_eqb r r' && Bool.eqb n n'
  | PImm l s w, PImm l' s' w' => String.eqb l l' && Bool.eqb s s' && N.eqb w w'
  | PPktAddr, PPktAddr => true
  | PParam x, PParam y => String.eqb x y
  | PUn o x, PUn o' x' => unop_eqb o o' && pure_seqb x x'
  | PBin o x y, PBin o' x' y' => N.eqb (binop_tag o) (binop_tag o') && pure_seqb x x' && pure_seqb y y'
  | PCmp o x y, PCmp o' x' y' => N.eqb (cmpop_tag o) (cmpop_tag o') && pure_seqb x x' && pure_seqb y y'
  | PCast w f x, PCast w' f' x' => N.eqb w w' && pure_seqb f f' && pure_seqb x x'
  | PMsb x, PMsb x' => pure_seqb x x'
  | PNonZero x, PNonZero x' => pure_seqb x x'
  | PInv x, PInv x' => pure_seqb x x'
  | PAnd x y, PAnd x' y' => pure_seqb x x' && pure_seqb y y'
  | POr x y, POr x' y' => pure_seqb x x' && pure_seqb y y'
  | PIte c x y, PIte c' x' y' => pure_seqb c c' && pure_seqb x x' && pure_seqb y y'
  | PLoad w x, PLoad w' x' => N.eqb w w' && pure_seqb x x'
  | PSignExt s w x, PSignExt s' w' x' => Bool.eqb s s' && N.eqb w w' && pure_seqb x x'
  | PIncDec i x w, PIncDec i' x' w' => Bool.eqb i i' && N.eqb w w' && pure_seqb x x'
  | PApp h l, PApp h' l' =>
      String.eqb h h' &&
      (fix go (l l' : list pure) : bool :=
         match l, l' with [] , [] => true | x :: t, x' :: t' => pure_seqb x x' && go t t' | _, _ => false end) l l'
  | PRaw s, PRaw s' => String.eqb s s'
  | _, _ => false
  end.

Ltac eqb_all :=
  repeat match goal with
         | H : (_ && _)%bool = true |- _ => apply andb_prop in H; let H1 := fresh H in destruct H as [H H1]
         | H : String.eqb _ _ = true |- _ => apply String.eqb_eq in H
         | H : Bool.eqb _ _ = true |- _ => apply eqb_prop in H
         | H : N.eqb (binop_tag _) (binop_tag _) = true |- _ => apply binop_tag_inj in H
         | H : N.eqb (cmpop_tag _) (cmpop_tag _) = true |- _ => apply cmpop_tag_inj in H
         | H : N.eqb _ _ = true |- _ => apply N.eqb_eq in H
         | H : Nat.eqb _ _ = true |- _ => apply Nat.eqb_eq in H
         | H : Z.eqb _ _ = true |- _ => apply Z.eqb_eq in H
         | H : regop_eqb _ _ = true |- _ => apply regop_eqb_sound in H
         | H : unop_eqb _ _ = true |- _ => apply unop_eqb_sound in H
         end.

Lemma pure_seqb_sound : forall a b, pure_seqb a b = true -> a = b.
Proof.
  fix IH 1. intros a b. destruct a; destruct b; try discriminate; cbn [pure_seqb]; intros H; eqb_all;
    repeat match goal with
           | H : pure_seqb _ _ = true |- _ => apply IH in H
           end; try (subst; reflexivity).
  (* PApp *)
  subst head0. f_equal. revert args0 H0.
  induction args as [|x t IHt]; intros [|x' t'] H0; try discriminate H0; [reflexivity|].
  apply andb_prop in H0. destruct H0 as [Hx Ht]. apply IH in Hx. rewrite Hx, (IHt t' Ht). reflexivity.
Qed.

Definition arg_seqb (a b : arg) : bool :=
  match a, b with
  | APure p, APure q => pure_seqb p q
  | AOp r, AOp r' => regop_eqb r r'
  | ARaw s, ARaw s' => String.eqb s s'
  | _, _ => false
  end.
Lemma arg_seqb_sound a b : arg_seqb a b = true -> a = b.
Proof.
  destruct a, b; cbn [arg_seqb]; try discriminate; intros H.
  - apply pure_seqb_sound in H. subst. reflexivity.
  - apply regop_eqb_sound in H. subst. reflexivity.
  - apply String.eqb_eq in H. subst. reflexivity.
Qed.
Fixpoint args_seqb (l l' : list arg) : bool :=
  match l, l' with [], [] => true | x :: t, x' :: t' => arg_seqb x x' && args_seqb t t' | _, _ => false end.
Lemma args_seqb_sound l : forall l', args_seqb l l' = true -> l = l'.
Proof.
  induction l as [|x t IHt]; intros [|x' t'] H; cbn [args_seqb] in H; try discriminate H; [reflexivity|].
  apply andb_prop in H. destruct H as [Hx Ht]. apply arg_seqb_sound in Hx. rewrite Hx, (IHt t' Ht). reflexivity.
Qed.

Fixpoint effect_seqb (a b : effect) : bool :=
  match a, b with
  | ESetL x p, ESetL x' p' => String.eqb x x' && pure_seqb p p'
  | EWriteReg r p, EWriteReg r' p' => regop_eqb r r' && pure_seqb p p'
  | EStore x y, EStore x' y' => pure_seqb x x' && pure_seqb y y'
  | ESeq x y, ESeq x' y' => effect_seqb x x' && effect_seqb y y'
  | EBranch c x y, EBranch c' x' y' => pure_seqb c c' && effect_seqb x x' && effect_seqb y y'
  | ERepeat c x, ERepeat c' x' => pure_seqb c c' && effect_seqb x x'
  | ENop, ENop => true
  | EEmpty, EEmpty => true
  | RzIL.ECall f l, RzIL.ECall f' l' => String.eqb f f' && args_seqb l l'
  | EPlugin f l, EPlugin f' l' => String.eqb f f' && args_seqb l l'
  | _, _ => false
  end.
Lemma effect_seqb_sound : forall a b, effect_seqb a b = true -> a = b.
Proof.
  induction a as [x p | r p | x y | x IHx y IHy | c x IHx y IHy | c x IHx | | | f l | f l]; intros b; destruct b;
    try discriminate; cbn [effect_seqb]; intros H; eqb_all;
    repeat match goal with
           | H : pure_seqb _ _ = true |- _ => apply pure_seqb_sound in H
           | H : args_seqb _ _ = true |- _ => apply args_seqb_sound in H
           end;
    repeat match goal with
           | IH : forall b, effect_seqb ?x b = true -> ?x = b, H : effect_seqb ?x _ = true |- _ => apply IH in H
           end;
    subst; reflexivity.
Qed.

Fixpoint strs_eqb (a b : list string) : bool :=
  match a, b with [], [] => true | x :: t, y :: u => String.eqb x y && strs_eqb t u | _, _ => false end.
Lemma strs_eqb_sound a : forall b, strs_eqb a b = true -> a = b.
Proof.
  induction a as [|x t IHt]; intros [|y u] H; cbn [strs_eqb] in H; try discriminate H; [reflexivity|].
  apply andb_prop in H. destruct H as [Hx Ht]. apply String.eqb_eq in Hx. rewrite Hx, (IHt u Ht). reflexivity.
Qed.

Definition tinfo_eqb (a b : tinfo) : bool :=
  effect_seqb (ti_eff a) (ti_eff b) && N.eqb (ti_hcount a) (ti_hcount b) && Nat.eqb (ti_leftover a) (ti_leftover b) &&
  Bool.eqb (ti_dropped a) (ti_dropped b) && strs_eqb (ti_removed a) (ti_removed b).
Definition tinfo_res_eqb (a b : res tinfo) : bool :=
  match a, b with
  | OK x, OK y => tinfo_eqb x y
  | Err m, Err m' => String.eqb m m'
  | _, _ => false
  end.
Lemma tinfo_res_eqb_sound a b : tinfo_res_eqb a b = true -> a = b.
Proof.
  destruct a as [[e1 h1 l1 d1 r1]|m1], b as [[e2 h2 l2 d2 r2]|m2]; cbn [tinfo_res_eqb]; try discriminate.
  - unfold tinfo_eqb. cbn [ti_eff ti_hcount ti_leftover ti_dropped ti_removed]. intros H.
    reflect_in H. destruct H as [[[[He Hh] Hl] Hd] Hr]. apply effect_seqb_sound in He. apply strs_eqb_sound in Hr.
    subst. reflexivity.
  - intros H. apply String.eqb_eq in H. subst. reflexivity.
Qed.

(* the configuration of the theorem: every repair on, the routine has no parameters; sub-routine and macro
   tables, return type and the hybrid counter as in the real configuration *)
Definition no_params (c : config) : config :=
  mkcfg (cfg_fx c) (cfg_subs c) (cfg_macros c) [] (cfg_ret c) (cfg_hstart c).
Definition cfg_thm (h : N) : config := no_params (with_fx all_fixes (cfg_insn h)).

Lemma cfg_thm_fx h : cfg_fx (cfg_thm h) = all_fixes. Proof. reflexivity. Qed.
(* the real macro table gives QEMU's bit-field macros the signatures the theorems assume *)
Lemma macs_std_macs0 : macs_std macs0.
Proof. intros sg H. cbn [std_macs In] in H. repeat (destruct H as [<- | H]; [vm_compute; reflexivity|]). contradiction. Qed.
Lemma cfg_insn_macs h : macs_std (cfg_macros (cfg_insn h)). Proof. exact macs_std_macs0. Qed.
Lemma cfg_thm_macs h : macs_std (cfg_macros (cfg_thm h)). Proof. exact macs_std_macs0. Qed.
(* STORE_SLOT_CANCELLED and sizeof are not among the compiled sub-routines *)
Lemma subs_ext_subs0 : subs_ext Resources.subs0.
Proof. intros f H. cbn [ext_calls In] in H. repeat (destruct H as [<- | H]; [reflexivity|]). contradiction. Qed.
Lemma cfg_thm_ssc h : subs_ext (cfg_subs (cfg_thm h)). Proof. exact subs_ext_subs0. Qed.
Lemma cfg_insn_ssc h : subs_ext (cfg_subs (cfg_insn h)). Proof. exact subs_ext_subs0. Qed.
(* the C sub-routine table of the differential runs (Witness.verdict_of) meets the premise [csub_ext] of covered_correct *)
Lemma csub_table_ext : csub_ext csub_table.
Proof. intros f H. cbn [ext_calls In] in H. repeat (destruct H as [<- | H]; [reflexivity|]). contradiction. Qed.
Lemma cfg_thm_params h : cfg_params (cfg_thm h) = []. Proof. reflexivity. Qed.
Lemma cfg_thm_hstart h : cfg_hstart (cfg_thm h) = h. Proof. reflexivity. Qed.
(* the real configuration does have parameters *)
Lemma cfg_insn_params h : map fst (cfg_params (cfg_insn h)) = ["pkt"; "hi"; "bundle"]. Proof. reflexivity. Qed.

Definition covered (h : N) (prog : cstmts) : bool :=
  im_ok_b prog &&
  (match sfrags_check (rw_of_prog prog) (IM_of prog) [] [] prog with Some _ => true | None => false end) &&
  tinfo_res_eqb (tlower_info (cfg_insn h) prog) (tlower_info (cfg_thm h) prog).

(* D' = the locals the behaviour declares, V' = those of them it has given a value *)
Theorem covered_correct : forall h prog, covered h prog = true ->
  exists eff h' D' V', tlower_info (cfg_insn h) prog = OK (mkti eff h' 0 false []) /\ (h <= h')%N /\
    forall ilsubs E csub xi cs ms fuel cs', csub_ext csub -> xi_ok xi ->
      srel (IM_of prog) E [] [] cs ms -> imm_fresh (IM_of prog) cs -> cexecs E csub xi fuel cs prog = Some cs' ->
      exists ms', runs (rw_of_prog prog) ilsubs eff ms ms' /\ srel (IM_of prog) E D' V' cs' ms'.
Proof.
  intros h prog H. unfold covered in H. rewrite !andb_true_iff, im_ok_b_iff, is_some_iff in H.
  destruct H as [[Him [[D' V'] Ec]] Heq]. apply sfrags_check_sound in Ec. apply tinfo_res_eqb_sound in Heq.
  destruct (tlower_correct_uniform (cfg_thm h) (rw_of_prog prog) (IM_of prog) prog D' V'
              (cfg_thm_fx h) (cfg_thm_params h) (cfg_thm_macs h) (cfg_thm_ssc h) Him Ec) as [eff [h' [Hi [Hle Hsim]]]].
  rewrite <- Heq in Hi. exists eff, h', D', V'. split; [exact Hi|]. split; [exact Hle | exact Hsim].
Qed.
Print Assumptions covered_correct.

(* an instruction with several behaviour parts (the 72 two-part definitions of the corpus): every part is compiled on its own, the
   temporary counter runs on from part to part; [covered_parts] chains the counter as the compiler does *)
Fixpoint covered_parts (h : N) (ps : list cstmts) : list bool :=
  match ps with
  | [] => []
  | p :: t => covered h p :: covered_parts (match tlower_info (cfg_insn h) p with OK i => ti_hcount i | Err _ => h end) t
  end.
Fixpoint part_counters (h : N) (ps : list cstmts) : list N :=
  match ps with
  | [] => []
  | p :: t => h :: part_counters (match tlower_info (cfg_insn h) p with OK i => ti_hcount i | Err _ => h end) t
  end.
Lemma covered_parts_spec h ps : covered_parts h ps = map (fun hp => covered (fst hp) (snd hp)) (combine (part_counters h ps) ps).
Proof. revert h. induction ps as [|p t IH]; intros h; [reflexivity|]. cbn [covered_parts part_counters combine map fst snd]. rewrite IH. reflexivity. Qed.
(* the k-th entry of [covered_parts] is [covered] of the k-th part at the k-th counter of [part_counters], so [covered_correct]
   applies there.  (That these are the counters the compiler has is the modelling claim above, not part of this statement.) *)
Theorem covered_parts_correct h ps k p hk : nth_error ps k = Some p -> nth_error (part_counters h ps) k = Some hk ->
  nth_error (covered_parts h ps) k = Some true -> covered hk p = true.
Proof.
  revert h k. induction ps as [|q t IH]; intros h k Hp Hh Hc; [destruct k; discriminate Hp|].
  destruct k as [|k]; cbn [nth_error covered_parts part_counters] in *.
  - injection Hp as ->. injection Hh as <-. injection Hc as ->. reflexivity.
  - exact (IH _ k Hp Hh Hc).
Qed.
Print Assumptions covered_parts_correct.

(* [covered_correct] with the final counter computed (chained as in [covered_parts]); and from there a run that starts in
   the initial states of an environment E, where the C run has an outcome with the property Q: the IL run ends with the
   same register writes and the same jump *)
Lemma covered_at h h' prog : covered h prog = true ->
  match tlower_info (cfg_insn h) prog with OK i => ti_hcount i | Err _ => h end = h' ->
  exists eff D' V', tlower_info (cfg_insn h) prog = OK (mkti eff h' 0 false []) /\
    forall ilsubs E csub xi cs ms fuel cs', csub_ext csub -> xi_ok xi ->
      srel (IM_of prog) E [] [] cs ms -> imm_fresh (IM_of prog) cs -> cexecs E csub xi fuel cs prog = Some cs' ->
      exists ms', runs (rw_of_prog prog) ilsubs eff ms ms' /\ srel (IM_of prog) E D' V' cs' ms'.
Proof.
  intros Hcov Hh. destruct (covered_correct h prog Hcov) as [eff [h0 [D' [V' [Hl [_ Hsim]]]]]].
  rewrite Hl in Hh. cbn [ti_hcount] in Hh. subst h0. exists eff, D', V'. split; assumption.
Qed.
Lemma covered_run h h' prog E xi fuel ilsubs (Q : cstate -> Prop) : covered h prog = true ->
  match tlower_info (cfg_insn h) prog with OK i => ti_hcount i | Err _ => h end = h' -> xi_ok xi ->
  (exists cs', cexecs E Example.nosubs xi fuel cs0 prog = Some cs' /\ Q cs') ->
  exists eff cs' ms', tlower_info (cfg_insn h) prog = OK (mkti eff h' 0 false []) /\
    cexecs E Example.nosubs xi fuel cs0 prog = Some cs' /\ Q cs' /\
    runs (rw_of_prog prog) ilsubs eff (Example.ms_of E) ms' /\ cs_regw cs' = rnew ms' /\ jrel cs' ms'.
Proof.
  intros Hcov Hh Hxi [cs' [Hc HQ]]. destruct (covered_at h h' prog Hcov Hh) as [eff [D' [V' [Hl Hsim]]]].
  destruct (Hsim ilsubs E Example.nosubs xi cs0 (Example.ms_of E) fuel cs' csub_ext_none Hxi
              (Example.srel_init _ E) (Example.fresh_init _) Hc) as [ms' [Hrun [[_ [Hregw _]] [_ [_ [_ [_ [Hj _]]]]]]]].
  exists eff, cs', ms'. auto 8.
Qed.

Module CheckExamples.
  Definition reg (cls letters : string) := EOp (OReg cls letters).
  Definition imm (l : string) := EOp (OImm l).
  Definition num (v : Z) := EOp (ONum v false "").
  Definition var (x : string) := EOp (OIdent x).
  Definition asg (a b : cexpr) := SExpr (EAssign AAssign a b).
  Definition one (s : cstmt) : cstmts := SCons s SNil.

  (* { RdV = RsV + RtV; } *)
  Definition p_add := one (asg (reg "R" "d") (EBin Ast.BAdd (reg "R" "s") (reg "R" "t"))).
  (* { RdV = RsV + siV; } *)
  Definition p_addi := one (asg (reg "R" "d") (EBin Ast.BAdd (reg "R" "s") (imm "s"))).
  (* { if (PuV) { RdV = RsV; } else { RdV = RtV; } } *)
  Definition p_mux :=
    one (SIf (reg "P" "u") (SBlock (one (asg (reg "R" "d") (reg "R" "s")))) (Some (SBlock (one (asg (reg "R" "d") (reg "R" "t")))))).
  (* { RddV = RssV; } *)
  Definition p_pair := one (asg (reg "R" "dd") (reg "R" "ss")).
  (* { RxV += RsV * RtV; } *)
  Definition p_mac := one (SExpr (EAssign AAdd (reg "R" "x") (EBin Ast.BMul (reg "R" "s") (reg "R" "t")))).
  (* { mem_store_u32(RsV + siV, RtV); } *)
  Definition p_store := one (SStore false 32 (ECons (EBin Ast.BAdd (reg "R" "s") (imm "s")) (ECons (reg "R" "t") ENil))).

  Example covered_positive : map (covered 0) [p_add; p_addi; p_mux; p_pair; p_mac; p_store] = [true; true; true; true; true; true].
  Proof. vm_compute. reflexivity. Qed.

  (* --- memory loads, QEMU's bit-field macros, cancel_slot --- *)
  Definition mac (m : string) (l : list cexpr) : cexpr := EMacro m (fold_right ECons ENil l).
  Definition load (ts : tyspec) (sg : bool) (w : N) (a : cexpr) : cexpr := ECast ts (ELoad sg w (ECons a ENil)).
  (* { RdV = sextract64(RssV, 0, 8); } *)
  Definition p_sxtb := one (asg (reg "R" "d") (mac "sextract64" [reg "R" "ss"; num 0; num 8])).
  (* { RdV = extract64(RssV, 8, 16); } *)
  Definition p_ext64 := one (asg (reg "R" "d") (mac "extract64" [reg "R" "ss"; num 8; num 16])).
  (* { RdV = extract32(RsV, uiV, 5); } *)
  Definition p_ext32 := one (asg (reg "R" "d") (mac "extract32" [reg "R" "s"; imm "u"; num 5])).
  (* { RxV = deposit32(RxV, 0, 16, RsV); } *)
  Definition p_dep32 := one (asg (reg "R" "x") (mac "deposit32" [reg "R" "x"; num 0; num 16; reg "R" "s"])).
  (* { RddV = deposit64(RssV, 32, 32, RttV); } *)
  Definition p_dep64 := one (asg (reg "R" "dd") (mac "deposit64" [reg "R" "ss"; num 32; num 32; reg "R" "tt"])).
  (* { RdV = bswap32(RsV); } *)
  Definition p_bswap := one (asg (reg "R" "d") (mac "bswap32" [reg "R" "s"])).
  (* { RdV = (size2s_t) mem_load_s16(RsV + siV); } *)
  Definition p_loadh := one (asg (reg "R" "d") (load [TS_sizeN 2 true] true 16 (EBin Ast.BAdd (reg "R" "s") (imm "s")))).
  (* { RddV = (size8u_t) mem_load_u64(RsV); } *)
  Definition p_loadd := one (asg (reg "R" "dd") (load [TS_sizeN 8 false] false 64 (reg "R" "s"))).
  (* { if (!PvV) { cancel_slot; } else { mem_store_u32(RsV, RtV); } } *)
  Definition p_pstore :=
    one (SIf (EUn ULNot (reg "P" "v")) (SBlock (one SCancel))
             (Some (SBlock (one (SStore false 32 (ECons (reg "R" "s") (ECons (reg "R" "t") ENil))))))).
  (* { if (PtV) { RdV = (size1u_t) mem_load_u8(RsV + uiV); } else { cancel_slot; } } *)
  Definition p_pload :=
    one (SIf (reg "P" "t") (SBlock (one (asg (reg "R" "d") (load [TS_sizeN 1 false] false 8 (EBin Ast.BAdd (reg "R" "s") (imm "u"))))))
             (Some (SBlock (one SCancel)))).
  (* L2_ploadrubt_io:  { EA = RsV + uiV; if (PtV & 1) { RdV = (size1u_t) mem_load_u8(EA); } else { cancel_slot; } }
     (EA is declared implicitly by its first assignment) *)
  Definition p_pload_ea :=
    SCons (asg (var "EA") (EBin Ast.BAdd (reg "R" "s") (imm "u")))
   (SCons (SIf (EBin Ast.BAnd (reg "P" "t") (num 1))
               (SBlock (one (asg (reg "R" "d") (load [TS_sizeN 1 false] false 8 (var "EA")))))
               (Some (SBlock (one SCancel)))) SNil).
  (* L2_loadri_pi:  { EA = RxV; RxV = RxV + siV; RdV = (size4u_t) mem_load_u32(EA); } *)
  Definition p_load_pi :=
    SCons (asg (var "EA") (reg "R" "x"))
   (SCons (asg (reg "R" "x") (EBin Ast.BAdd (reg "R" "x") (imm "s")))
   (SCons (asg (reg "R" "d") (load [TS_sizeN 4 false] false 32 (var "EA"))) SNil)).
  (* S2_storerh_io:  { EA = RsV + siV; mem_store_u16(EA, RtV); } *)
  Definition p_store_ea :=
    SCons (asg (var "EA") (EBin Ast.BAdd (reg "R" "s") (imm "s")))
   (SCons (SStore false 16 (ECons (var "EA") (ECons (reg "R" "t") ENil))) SNil).
  (* S2_pstorerbt_io:  { EA = RsV + uiV; if (PvV & 1) { mem_store_u8(EA, RtV); } else { STORE_SLOT_CANCELLED(pkt, slot); } }
     (the call statement; its arguments are passed on as text: the emitted effect is HEX_STORE_SLOT_CANCELLED(pkt, hi->slot)) *)
  Definition ssc (a b : string) : cstmt := SExpr (Ast.ECall "STORE_SLOT_CANCELLED" (ECons (var a) (ECons (var b) ENil))).
  Definition p_pstore_ea (a b : string) :=
    SCons (asg (var "EA") (EBin Ast.BAdd (reg "R" "s") (imm "u")))
   (SCons (SIf (EBin Ast.BAnd (reg "P" "v") (num 1))
               (SBlock (one (SStore false 8 (ECons (var "EA") (ECons (reg "R" "t") ENil)))))
               (Some (SBlock (one (ssc a b))))) SNil).
  Example covered_store_slot_cancelled : map (covered 0) [p_pstore_ea "pkt" "slot"; p_pstore_ea "thread" "slot"] = [true; true].
  Proof. vm_compute. reflexivity. Qed.
  Example p_pstore_ea_lowered :
    tlower (cfg_insn 0) (p_pstore_ea "pkt" "slot") =
    OK (ESeq (ESetL "u" (PImm "u" false 32))
       (ESeq (ESetL "EA" (PBin RzIL.BAdd (PCast 32 (PBool false) (PReg (RIsa "R" "s" false) false)) (PVarL "u")))
             (EBranch (PNonZero (PBin BLogAnd (PCast 32 (PMsb (PReg (RIsa "P" "v" false) false)) (PReg (RIsa "P" "v" false) false)) (PBv true 32 1)))
                      (EStore (PVarL "EA") (PCast 8 (PBool false) (PReg (RIsa "R" "t" false) false)))
                      (EPlugin "HEX_STORE_SLOT_CANCELLED" [ARaw "pkt"; ARaw "hi->slot"]))), 0%N).
  Proof. vm_compute. reflexivity. Qed.

  (* --- the program counter alias (read only) --- *)
  (* { RdV = HEX_REG_ALIAS_PC + uiV; }   { JUMP(HEX_REG_ALIAS_PC + 8); } *)
  Definition p_pc_rd := one (asg (reg "R" "d") (EBin Ast.BAdd (EOp (OAlias "PC" false)) (imm "u"))).
  Definition p_pc_jump := one (SJump (EBin Ast.BAdd (EOp (OAlias "PC" false)) (num 8))).
  Example covered_pc : map (covered 0) [p_pc_rd; p_pc_jump] = [true; true].
  Proof. vm_compute. reflexivity. Qed.
  Example p_pc_jump_lowered :
    tlower (cfg_insn 0) p_pc_jump =
    OK (ESeq (ESetL "jump_flag" (PBool true)) (ESetL "jump_target" (PBin RzIL.BAdd PPktAddr (PCast 32 (PBool false) (PBv true 32 8)))), 0%N).
  Proof. vm_compute. reflexivity. Qed.
  (* a write to the alias is outside the fragment: the emitted effect names an undeclared operand handle *)
  Definition p_pc_wr := one (asg (EOp (OAlias "PC" false)) (reg "R" "s")).
  Example pc_write_not_covered : covered 0 p_pc_wr = false /\
    tlower (cfg_insn 0) p_pc_wr = OK (EWriteReg (RParam "pc_op") (PCast 32 (PBool false) (PReg (RIsa "R" "s" false) false)), 0%N).
  Proof. split; vm_compute; reflexivity. Qed.

  (* --- an immediate is assigned --- *)
  (* J2_jump:  { riV = riV & ~3; JUMP(HEX_REG_ALIAS_PC + riV); }     (fIMMEXT; fPCALIGN; fJUMP(fREAD_PC() + riV)) *)
  Definition p_jump :=
    SCons (asg (imm "r") (EBin Ast.BAnd (imm "r") (EUn UNot (num 3))))
   (SCons (SJump (EBin Ast.BAdd (EOp (OAlias "PC" false)) (imm "r"))) SNil).
  Example covered_jump : covered 0 p_jump = true.
  Proof. vm_compute. reflexivity. Qed.
  Example p_jump_lowered :
    tlower (cfg_insn 0) p_jump =
    OK (ESeq (ESetL "r" (PImm "r" true 32))
       (ESeq (ESetL "r" (PBin BLogAnd (PVarL "r") (PBv true 32 (-4))))
       (ESeq (ESetL "jump_flag" (PBool true))
             (ESetL "jump_target" (PBin RzIL.BAdd PPktAddr (PCast 32 (PBool false) (PVarL "r")))))), 0%N).
  Proof. vm_compute. reflexivity. Qed.
  (* executed: riV = 0x1f6 (502), packet address 0x1000: the target is 0x1000 + 0x1f4 = 4596 *)
  Definition env_jump : cenv := mkce (fun _ => 0%Z) (fun _ => 0%Z) (fun l => if String.eqb l "r" then 502%Z else 0%Z) 4096%Z (fun _ => 0%Z).
  Example p_jump_simulated : forall ilsubs,
    exists eff cs' ms', tlower_info (cfg_insn 0) p_jump = OK (mkti eff 0 0 false []) /\
      cexecs env_jump Example.nosubs Example.noxi 30 cs0 p_jump = Some cs' /\ cs_jump cs' = Some 4596%Z /\
      runs (rw_of_prog p_jump) ilsubs eff (Example.ms_of env_jump) ms' /\
      lookup "jump_target" (locals ms') = Some (VBv 32 4596%Z).
  Proof.
    intros ilsubs.
    destruct (covered_run 0 0 p_jump env_jump Example.noxi 30 ilsubs (fun cs' => cs_jump cs' = Some 4596%Z)
                ltac:(vm_compute; reflexivity) ltac:(vm_compute; reflexivity) xi_ok_std
                ltac:(eexists; split; [vm_compute; reflexivity | reflexivity]))
      as [eff [cs' [ms' [Hl [Hc [Hr [Hrun [Hregw Hj]]]]]]]].
    exists eff, cs', ms'. repeat (split; [assumption|]). unfold jrel in Hj. rewrite Hr in Hj. apply Hj.
  Qed.

  (* --- sizeof --- *)
  (* { RdV = RsV >> (sizeof(RsV) * 8 - 1); }   (the compiler folds sizeof(RsV) to the literal 4, typed int) *)
  Definition p_sizeof :=
    one (asg (reg "R" "d") (EBin Ast.BShr (reg "R" "s")
           (EBin Ast.BSub (EBin Ast.BMul (Ast.ECall "sizeof" (ECons (reg "R" "s") ENil)) (num 8)) (num 1)))).
  Example covered_sizeof : covered 0 p_sizeof = true.
  Proof. vm_compute. reflexivity. Qed.
  Example p_sizeof_lowered :
    tlower (cfg_insn 0) p_sizeof = OK (EWriteReg (RIsa "R" "d" false) (PBin BShra (PReg (RIsa "R" "s" false) false) (PBv true 32 31)), 0%N).
  Proof. vm_compute. reflexivity. Qed.
  (* CSem has no sizeof (it reads it as a call of a routine without body): for this behaviour the simulation theorem holds
     vacuously -- the C side prescribes nothing *)
  Example p_sizeof_no_c_value : cexecs Example.env Example.nosubs Example.noxi 50 cs0 p_sizeof = None.
  Proof. vm_compute. reflexivity. Qed.

  (* --- declarations without initialiser --- *)
  (* { size4s_t tmp; tmp = RsV + RtV; RdV = tmp; } *)
  Definition p_decl0 :=
    SCons (SDecl [TS_sizeN 4 true] "tmp" None)
   (SCons (asg (var "tmp") (EBin Ast.BAdd (reg "R" "s") (reg "R" "t"))) (SCons (asg (reg "R" "d") (var "tmp")) SNil)).
  (* { int x; if (PuV) { x = 1; } else { x = 2; } RdV = x; }    (both branches give x its first value) *)
  Definition p_decl0_if :=
    SCons (SDecl [TS_int] "x" None)
   (SCons (SIf (reg "P" "u") (SBlock (one (asg (var "x") (num 1)))) (Some (SBlock (one (asg (var "x") (num 2))))))
   (SCons (asg (reg "R" "d") (var "x")) SNil)).
  (* { int x; RdV = x; }   NOT covered: x is read before it has a value (C prescribes no result) *)
  Definition p_decl0_read := SCons (SDecl [TS_int] "x" None) (SCons (asg (reg "R" "d") (var "x")) SNil).
  (* { int x; if (PuV) { x = 1; } RdV = x; }   NOT covered: x has a value on one path only *)
  Definition p_decl0_half :=
    SCons (SDecl [TS_int] "x" None)
   (SCons (SIf (reg "P" "u") (SBlock (one (asg (var "x") (num 1)))) None) (SCons (asg (reg "R" "d") (var "x")) SNil)).
  Example covered_decl0 : map (covered 0) [p_decl0; p_decl0_if; p_decl0_read; p_decl0_half] = [true; true; false; false].
  Proof. vm_compute. reflexivity. Qed.
  Example p_decl0_envs :
    sfrags_check (rw_of_prog p_decl0_if) (IM_of p_decl0_if) [] [] p_decl0_if =
    Some ([("x", Some (ty_int true 32))], [("x", Some (ty_int true 32))]) /\
    sfrags_check (rw_of_prog p_decl0_read) (IM_of p_decl0_read) [] [] (SCons (SDecl [TS_int] "x" None) SNil) =
    Some ([("x", Some (ty_int true 32))], []).
  Proof. split; vm_compute; reflexivity. Qed.

  (* --- bitwise compound assignment --- *)
  (* M4_or_and:  { RxV |= (RsV & RtV); }      S2_asl_i_r_xacc-like:  { RxV ^= (RsV << uiV); } *)
  Definition p_oracc := one (SExpr (EAssign AOr (reg "R" "x") (EBin Ast.BAnd (reg "R" "s") (reg "R" "t")))).
  Definition p_xacc := one (SExpr (EAssign AXor (reg "R" "x") (EBin Ast.BShl (reg "R" "s") (imm "u")))).
  (* { uint8_t m = 15; m &= RsV; PdV = m; } *)
  Definition p_andvar :=
    SCons (SDecl [TS_intN false 8] "m" (Some (num 15))) (SCons (SExpr (EAssign AAnd (var "m") (reg "R" "s"))) (SCons (asg (reg "P" "d") (var "m")) SNil)).
  Example covered_bitwise_compound : map (covered 0) [p_oracc; p_xacc; p_andvar] = [true; true; true].
  Proof. vm_compute. reflexivity. Qed.

  (* --- compound shifts --- *)
  (* { RxV <<= uiV; }     { int32_t t = RsV; t >>= 3; RdV = t; }     { uint8_t m = 15; m <<= RsV; PdV = m; } *)
  Definition p_shlacc := one (SExpr (EAssign AShl (reg "R" "x") (imm "u"))).
  Definition p_shrvar :=
    SCons (SDecl [TS_intN true 32] "t" (Some (reg "R" "s"))) (SCons (SExpr (EAssign AShr (var "t") (num 3))) (SCons (asg (reg "R" "d") (var "t")) SNil)).
  Definition p_shl8 :=
    SCons (SDecl [TS_intN false 8] "m" (Some (num 15))) (SCons (SExpr (EAssign AShl (var "m") (reg "R" "s"))) (SCons (asg (reg "P" "d") (var "m")) SNil)).
  Example covered_compound_shifts : map (covered 0) [p_shlacc; p_shrvar; p_shl8] = [true; true; true].
  Proof. vm_compute. reflexivity. Qed.
  Example p_shrvar_lowered :
    tlower (cfg_insn 0) p_shrvar =
    OK (ESeq (ESetL "t" (PReg (RIsa "R" "s" false) false))
       (ESeq (ESetL "t" (PBin BShra (PVarL "t") (PBv true 32 3)))
             (EWriteReg (RIsa "R" "d" false) (PVarL "t"))), 0%N).
  Proof. vm_compute. reflexivity. Qed.

  (* --- explicitly named registers --- *)
  (* fWRITE_P0(RsV & 255):  { P0 = RsV & 255; }      fREAD_P0():  { RdV = P0; }      { RdV = P3_NEW + R31; } *)
  Definition expl (n : string) := EOp (OExplicit n false).
  Definition p_p0_wr := one (asg (expl "P0") (EBin Ast.BAnd (reg "R" "s") (num 255))).
  Definition p_p0_rd := one (asg (reg "R" "d") (expl "P0")).
  Definition p_p3new := one (asg (reg "R" "d") (EBin Ast.BAdd (EOp (OExplicit "P3" true)) (expl "R31"))).
  (* { P1 = RsV; RdV = P1; }   the register written is read back *)
  Definition p_p1_rw := SCons (asg (expl "P1") (reg "R" "s")) (SCons (asg (reg "R" "d") (expl "P1")) SNil).
  Example covered_explicit : map (covered 0) [p_p0_wr; p_p0_rd; p_p3new; p_p1_rw] = [true; true; true; true].
  Proof. vm_compute. reflexivity. Qed.
  Example p_p1_rw_lowered :
    tlower (cfg_insn 0) p_p1_rw =
    OK (ESeq (EWriteReg (RExpl 1 "HEX_REG_CLASS_PRED_REGS" false) (PCast 8 (PMsb (PReg (RIsa "R" "s" false) false)) (PReg (RIsa "R" "s" false) false)))
             (EWriteReg (RIsa "R" "d" false) (PCast 32 (PMsb (PReg (RExpl 1 "HEX_REG_CLASS_PRED_REGS" false) true))
                                                       (PReg (RExpl 1 "HEX_REG_CLASS_PRED_REGS" false) true))), 0%N).
  Proof. vm_compute. reflexivity. Qed.
  Definition env_expl : cenv :=
    mkce (fun r => if regop_eqb r (RIsa "R" "s" false) then 511%Z else 0%Z) (fun _ => 0%Z) (fun _ => 0%Z) 0%Z (fun _ => 0%Z).
  (* RsV = 511: P1 := 255 (8 bits), read back as the signed 8 bit value -1: RdV = 0xffffffff *)
  Example p_p1_rw_simulated : forall ilsubs,
    exists eff cs' ms', tlower_info (cfg_insn 0) p_p1_rw = OK (mkti eff 0 0 false []) /\
      cexecs env_expl Example.nosubs explicit_reg_info 30 cs0 p_p1_rw = Some cs' /\
      runs (rw_of_prog p_p1_rw) ilsubs eff (Example.ms_of env_expl) ms' /\
      rnew ms' = [(RIsa "R" "d" false, 4294967295%Z); (RExpl 1 "HEX_REG_CLASS_PRED_REGS" false, 255%Z)].
  Proof.
    intros ilsubs.
    destruct (covered_run 0 0 p_p1_rw env_expl explicit_reg_info 30 ilsubs (fun cs' => cs_regw cs' = [(RIsa "R" "d" false, 4294967295%Z); (RExpl 1 "HEX_REG_CLASS_PRED_REGS" false, 255%Z)])
                ltac:(vm_compute; reflexivity) ltac:(vm_compute; reflexivity) xi_ok_std
                ltac:(eexists; split; [vm_compute; reflexivity | reflexivity]))
      as [eff [cs' [ms' [Hl [Hc [Hr [Hrun [Hregw Hj]]]]]]]].
    exists eff, cs', ms'. repeat (split; [assumption|]). congruence.
  Qed.
  (* not covered: registers outside ExprCorrect.expl_names (R0 ...), compound assignment to an explicit register *)
  Example explicit_not_covered :
    map (covered 0) [one (asg (reg "R" "d") (expl "R0")); one (SExpr (EAssign AOr (expl "P0") (reg "R" "s")))] = [false; false].
  Proof. vm_compute. reflexivity. Qed.

  (* --- register aliases --- *)
  Definition alias (n : string) := EOp (OAlias n false).
  (* { RdV = HEX_REG_ALIAS_GP + uiV; } *)
  Definition p_alias_rd := one (asg (reg "R" "d") (EBin Ast.BAdd (alias "GP") (imm "u"))).
  (* { HEX_REG_ALIAS_LC0 = RsV; HEX_REG_ALIAS_SA0 = RtV; } *)
  Definition p_alias_wr := SCons (asg (alias "LC0") (reg "R" "s")) (SCons (asg (alias "SA0") (reg "R" "t")) SNil).
  (* { ReV = HEX_REG_ALIAS_LR; HEX_REG_ALIAS_LR = HEX_REG_ALIAS_LR + 4; RdV = HEX_REG_ALIAS_LR; }
     (an alias the behaviour writes: EVERY read of it, also the one before the write, is emitted as a read of the new bank) *)
  Definition p_alias_rw :=
    SCons (asg (reg "R" "e") (alias "LR")) (SCons (asg (alias "LR") (EBin Ast.BAdd (alias "LR") (num 4))) (SCons (asg (reg "R" "d") (alias "LR")) SNil)).
  (* { RddV = HEX_REG_ALIAS_UPCYCLE; }   (a 64-bit alias) *)
  Definition p_alias_64 := one (asg (reg "R" "dd") (alias "UPCYCLE")).
  Example covered_aliases : map (covered 0) [p_alias_rd; p_alias_wr; p_alias_rw; p_alias_64] = [true; true; true; true].
  Proof. vm_compute. reflexivity. Qed.
  Example p_alias_rw_lowered :
    tlower (cfg_insn 0) p_alias_rw =
    OK (ESeq (EWriteReg (RIsa "R" "e" false) (PCast 32 (PBool false) (PReg (RAlias "HEX_REG_ALIAS_LR" false) true)))
       (ESeq (EWriteReg (RAlias "HEX_REG_ALIAS_LR" false)
                (PBin RzIL.BAdd (PReg (RAlias "HEX_REG_ALIAS_LR" false) true) (PCast 32 (PBool false) (PBv true 32 4))))
             (EWriteReg (RIsa "R" "d" false) (PCast 32 (PBool false) (PReg (RAlias "HEX_REG_ALIAS_LR" false) true)))), 0%N).
  Proof. vm_compute. reflexivity. Qed.
  Definition env_alias : cenv :=
    mkce (fun r => if regop_eqb r (alias_op "LR" false) then 100%Z else 0%Z) (fun _ => 0%Z) (fun _ => 0%Z) 0%Z (fun _ => 0%Z).
  Example p_alias_rw_simulated : forall ilsubs,
    exists eff cs' ms', tlower_info (cfg_insn 0) p_alias_rw = OK (mkti eff 0 0 false []) /\
      cexecs env_alias Example.nosubs Example.noxi 30 cs0 p_alias_rw = Some cs' /\
      runs (rw_of_prog p_alias_rw) ilsubs eff (Example.ms_of env_alias) ms' /\
      rnew ms' = [(RIsa "R" "d" false, 104%Z); (RAlias "HEX_REG_ALIAS_LR" false, 104%Z); (RIsa "R" "e" false, 100%Z)].
  Proof.
    intros ilsubs.
    destruct (covered_run 0 0 p_alias_rw env_alias Example.noxi 30 ilsubs (fun cs' => cs_regw cs' = [(RIsa "R" "d" false, 104%Z); (RAlias "HEX_REG_ALIAS_LR" false, 104%Z); (RIsa "R" "e" false, 100%Z)])
                ltac:(vm_compute; reflexivity) ltac:(vm_compute; reflexivity) xi_ok_std
                ltac:(eexists; split; [vm_compute; reflexivity | reflexivity]))
      as [eff [cs' [ms' [Hl [Hc [Hr [Hrun [Hregw Hj]]]]]]]].
    exists eff, cs', ms'. repeat (split; [assumption|]). congruence.
  Qed.

  Example covered_implicit_EA : map (covered 0) [p_pload_ea; p_load_pi; p_store_ea] = [true; true; true].
  Proof. vm_compute. reflexivity. Qed.
  Example p_pload_ea_lowered :
    tlower (cfg_insn 0) p_pload_ea =
    OK (ESeq (ESetL "u" (PImm "u" false 32))
       (ESeq (ESetL "EA" (PBin RzIL.BAdd (PCast 32 (PBool false) (PReg (RIsa "R" "s" false) false)) (PVarL "u")))
             (EBranch (PNonZero (PBin BLogAnd (PCast 32 (PMsb (PReg (RIsa "P" "t" false) false)) (PReg (RIsa "P" "t" false) false)) (PBv true 32 1)))
                      (EWriteReg (RIsa "R" "d" false)
                         (PCast 32 (PBool false) (PCast 8 (PBool false) (PLoad 8 (PVarL "EA")))))
                      ENop)), 0%N).
  Proof. vm_compute. reflexivity. Qed.
  (* evaluating [covered] (and the final counter) gives the simulation theorem for the predicated load, for the real configuration *)
  Example p_pload_ea_simulated :
    exists eff D' V', tlower_info (cfg_insn 0) p_pload_ea = OK (mkti eff 0 0 false []) /\
      forall ilsubs E csub xi cs ms fuel cs', csub_ext csub -> xi_ok xi -> srel (IM_of p_pload_ea) E [] [] cs ms -> imm_fresh (IM_of p_pload_ea) cs -> cexecs E csub xi fuel cs p_pload_ea = Some cs' ->
        exists ms', runs (rw_of_prog p_pload_ea) ilsubs eff ms ms' /\ srel (IM_of p_pload_ea) E D' V' cs' ms'.
  Proof. exact (covered_at 0 0 p_pload_ea ltac:(vm_compute; reflexivity) ltac:(vm_compute; reflexivity)). Qed.

  (* the theorem is not vacuous for these constructs: a behaviour with a load, a macro and an (untaken) cancel_slot, EXECUTED.
        EA = RsV + 4;  RdV = (size2s_t) mem_load_s16(EA);  RxV = extract32(RdV, 4, 8);  if (RsV == 0) { cancel_slot; }
     with RsV = 1000 and the bytes 0x34 0xF2 at 1004: the halfword 0xF234 is sign-extended, RdV = 0xFFFFF234, RxV = 0x23 *)
  Definition p_run :=
    SCons (asg (var "EA") (EBin Ast.BAdd (reg "R" "s") (num 4)))
   (SCons (asg (reg "R" "d") (load [TS_sizeN 2 true] true 16 (var "EA")))
   (SCons (asg (reg "R" "x") (mac "extract32" [reg "R" "d"; num 4; num 8]))
   (SCons (SIf (EBin Ast.BEq (reg "R" "s") (num 0)) (SBlock (one SCancel)) None) SNil))).
  Definition env_run : cenv :=
    mkce (fun r => if regop_eqb r (RIsa "R" "s" false) then 1000%Z else 0%Z) (fun _ => 0%Z) (fun _ => 0%Z) 0%Z
         (fun a => if Z.eqb a 1004 then 52%Z else if Z.eqb a 1005 then 242%Z else 0%Z).
  Example p_run_simulated : forall ilsubs,
    exists eff cs' ms', tlower_info (cfg_insn 0) p_run = OK (mkti eff 0 0 false []) /\
      cexecs env_run Example.nosubs Example.noxi 30 cs0 p_run = Some cs' /\
      runs (rw_of_prog p_run) ilsubs eff (Example.ms_of env_run) ms' /\
      rnew ms' = [(RIsa "R" "x" false, 35%Z); (RIsa "R" "d" false, 4294963764%Z)].
  Proof.
    intros ilsubs.
    destruct (covered_run 0 0 p_run env_run Example.noxi 30 ilsubs (fun cs' => cs_regw cs' = [(RIsa "R" "x" false, 35%Z); (RIsa "R" "d" false, 4294963764%Z)])
                ltac:(vm_compute; reflexivity) ltac:(vm_compute; reflexivity) xi_ok_std
                ltac:(eexists; split; [vm_compute; reflexivity | reflexivity]))
      as [eff [cs' [ms' [Hl [Hc [Hr [Hrun [Hregw Hj]]]]]]]].
    exists eff, cs', ms'. repeat (split; [assumption|]). congruence.
  Qed.

  Example covered_loads_macros_cancel :
    map (covered 0) [p_sxtb; p_ext64; p_ext32; p_dep32; p_dep64; p_bswap; p_loadh; p_loadd; p_pstore; p_pload]
    = [true; true; true; true; true; true; true; true; true; true].
  Proof. vm_compute. reflexivity. Qed.
  Example p_sxtb_lowered :
    tlower (cfg_insn 0) p_sxtb =
    OK (EWriteReg (RIsa "R" "d" false)
          (PCast 32 (PMsb (PApp "SEXTRACT64" [PCast 64 (PBool false) (PReg (RIsa "R" "s" false) false); PBv true 32 0; PBv true 32 8]))
             (PApp "SEXTRACT64" [PCast 64 (PBool false) (PReg (RIsa "R" "s" false) false); PBv true 32 0; PBv true 32 8])), 0%N).
  Proof. vm_compute. reflexivity. Qed.
  (* { RdV = sextract64(RsV, 0, 8); }  (QEMU's fSXTN(8,64,RsV)): the 32-bit SIGNED operand is passed to the macro's uint64_t
     parameter.  Both configurations sign-extend it (fill bit MSB), as C does, so the two translations agree and the behaviour
     is covered.  (Defect D3 of the compiler, fixed in /repo: with the operand zero-extended (fill bit IL_FALSE) by the
     real configuration the translations differ, and `covered`, which compares terms, reports the behaviour as not covered.) *)
  Definition p_sxtb32 := one (asg (reg "R" "d") (mac "sextract64" [reg "R" "s"; num 0; num 8])).
  Example sxtb32_covered :
    covered 0 p_sxtb32 = true /\
    tlower (cfg_insn 0) p_sxtb32 =
      OK (EWriteReg (RIsa "R" "d" false)
            (PCast 32 (PMsb (PApp "SEXTRACT64" [PCast 64 (PMsb (PReg (RIsa "R" "s" false) false)) (PReg (RIsa "R" "s" false) false); PBv true 32 0; PBv true 32 8]))
               (PApp "SEXTRACT64" [PCast 64 (PMsb (PReg (RIsa "R" "s" false) false)) (PReg (RIsa "R" "s" false) false); PBv true 32 0; PBv true 32 8])), 0%N).
  Proof. repeat split; vm_compute; reflexivity. Qed.
  Example p_loadh_lowered :
    tlower (cfg_insn 0) p_loadh =
    OK (ESeq (ESetL "s" (PImm "s" true 32))
             (EWriteReg (RIsa "R" "d" false)
                (PCast 32 (PMsb (PCast 16 (PMsb (PLoad 16 (PBin RzIL.BAdd (PReg (RIsa "R" "s" false) false) (PVarL "s"))))
                                          (PLoad 16 (PBin RzIL.BAdd (PReg (RIsa "R" "s" false) false) (PVarL "s")))))
                          (PCast 16 (PMsb (PLoad 16 (PBin RzIL.BAdd (PReg (RIsa "R" "s" false) false) (PVarL "s"))))
                                    (PLoad 16 (PBin RzIL.BAdd (PReg (RIsa "R" "s" false) false) (PVarL "s")))))), 0%N).
  Proof. vm_compute. reflexivity. Qed.

  (* the width environment computed for the programs: the handle 's' is 32 bit where RsV is used, 64 bit where RssV is *)
  Example rw_single : rw_of_prog p_add (RIsa "R" "s" false) = 32%N /\ rw_of_prog p_mux (RIsa "P" "u" false) = 8%N.
  Proof. split; reflexivity. Qed.
  Example rw_pair : rw_of_prog p_pair (RIsa "R" "s" false) = 64%N /\ rw_of_prog p_pair (RIsa "R" "d" false) = 64%N /\
                    rw_of_prog p_pair (RIsa "R" "t" false) = 32%N.
  Proof. repeat split; reflexivity. Qed.
  Example im_addi : IM_of p_addi "s" = true /\ IM_of p_addi "u" = false /\ imms_of p_add = [].
  Proof. repeat split; reflexivity. Qed.

  (* evaluating [covered] (and the final counter) gives the simulation theorem for the real configuration *)
  Example p_mac_simulated :
    exists eff D' V', tlower_info (cfg_insn 0) p_mac = OK (mkti eff 0 0 false []) /\
      forall ilsubs E csub xi cs ms fuel cs', csub_ext csub -> xi_ok xi -> srel (IM_of p_mac) E [] [] cs ms -> imm_fresh (IM_of p_mac) cs -> cexecs E csub xi fuel cs p_mac = Some cs' ->
        exists ms', runs (rw_of_prog p_mac) ilsubs eff ms ms' /\ srel (IM_of p_mac) E D' V' cs' ms'.
  Proof. exact (covered_at 0 0 p_mac ltac:(vm_compute; reflexivity) ltac:(vm_compute; reflexivity)). Qed.

  (* --- for loops --- *)
  (* int32_t i = 0; for (i = 0; i < 2; i++) { RdV = RsV; }
     COVERED (sf_for): the loop variable is a 32 bit local, the step is i++ (or i--), the body has no loop.
     The compiler turns i++ into a "hybrid": the temporary h_tmp0 keeps the old value of i, the increment is sequenced
     after the body; the final hybrid counter is 1 (covered_correct gives h <= h'). *)
  Definition p_loop :=
    SCons (SDecl [TS_intN true 32] "i" (Some (num 0)))
   (SCons (SFor (asg (var "i") (num 0)) (SExpr (EBin Ast.BLt (var "i") (num 2))) (Some (EPost true (var "i")))
                (SBlock (one (asg (reg "R" "d") (reg "R" "s"))))) SNil).
  (* for (i = 0; i < 4; i++) { RxV += i; }       (i implicitly declared by its first assignment, as in the shipped vector helpers)
     int j; for (j = 3; j > 0; j--) { if (j > 1) { RxV |= j; } }      (declaration without initialiser; a decreasing loop) *)
  Definition p_loop_acc :=
    one (SFor (asg (var "i") (num 0)) (SExpr (EBin Ast.BLt (var "i") (num 4))) (Some (EPost true (var "i")))
              (SBlock (one (SExpr (EAssign AAdd (reg "R" "x") (var "i")))))).
  Definition p_loop_dec :=
    SCons (SDecl [TS_int] "j" None)
   (SCons (SFor (asg (var "j") (num 3)) (SExpr (EBin Ast.BGt (var "j") (num 0))) (Some (EPost false (var "j")))
                (SBlock (one (SIf (EBin Ast.BGt (var "j") (num 1)) (SBlock (one (SExpr (EAssign AOr (reg "R" "x") (var "j"))))) None)))) SNil).
  (* two loops in a row: each gets its own temporary *)
  Definition p_loop_two :=
    SCons (SFor (asg (var "i") (num 0)) (SExpr (EBin Ast.BLt (var "i") (num 2))) (Some (EPost true (var "i")))
                (SBlock (one (SExpr (EAssign AAdd (reg "R" "x") (num 1))))))
   (SCons (SFor (asg (var "i") (num 0)) (SExpr (EBin Ast.BLt (var "i") (num 2))) (Some (EPost true (var "i")))
                (SBlock (one (SExpr (EAssign AAdd (reg "R" "x") (num 2)))))) SNil).
  Example covered_loops : map (covered 0) [p_loop; p_loop_acc; p_loop_dec; p_loop_two] = [true; true; true; true].
  Proof. vm_compute. reflexivity. Qed.
  Example p_loop_acc_lowered :
    tlower_info (cfg_insn 0) p_loop_acc =
    OK (mkti (ESeq (ESetL "i" (PCast 32 (PBool false) (PBv true 32 0)))
                (ERepeat (PCmp CUlt (PVarL "i") (PCast 32 (PBool false) (PBv true 32 4)))
                   (ESeq (EWriteReg (RIsa "R" "x" false)
                            (PBin RzIL.BAdd (PReg (RIsa "R" "x" false) false) (PCast 32 (PBool false) (PVarL "i"))))
                         (ESeq (ESetL "h_tmp0" (PVarL "i")) (ESetL "i" (PIncDec true (PVarL "i") 32))))))
             1 0 false []).
  Proof. vm_compute. reflexivity. Qed.
  (* the loop executed on both sides: RxV = 10 initially, the C run ends with RxV = 10 + 0 + 1 + 2 + 3 = 16, and so does the IL run *)
  Definition env_loop : cenv :=
    mkce (fun r => if regop_eqb r (RIsa "R" "x" false) then 10%Z else 0%Z) (fun _ => 0%Z) (fun _ => 0%Z) 0%Z (fun _ => 0%Z).
  Example p_loop_acc_simulated : forall ilsubs,
    exists eff cs' ms', tlower_info (cfg_insn 0) p_loop_acc = OK (mkti eff 1 0 false []) /\
      cexecs env_loop Example.nosubs Example.noxi 30 cs0 p_loop_acc = Some cs' /\
      runs (rw_of_prog p_loop_acc) ilsubs eff (Example.ms_of env_loop) ms' /\
      lookup_reg (RIsa "R" "x" false) (rnew ms') = Some 16%Z.
  Proof.
    intros ilsubs.
    destruct (covered_run 0 1 p_loop_acc env_loop Example.noxi 30 ilsubs (fun cs' => lookup_reg (RIsa "R" "x" false) (cs_regw cs') = Some 16%Z)
                ltac:(vm_compute; reflexivity) ltac:(vm_compute; reflexivity) xi_ok_std
                ltac:(eexists; split; [vm_compute; reflexivity | reflexivity]))
      as [eff [cs' [ms' [Hl [Hc [Hr [Hrun [Hregw Hj]]]]]]]].
    exists eff, cs', ms'. repeat (split; [assumption|]). rewrite <- Hregw. exact Hr.
  Qed.
  (* NOT covered: a loop inside a loop body, a loop variable that is not 32 bits wide *)
  Definition p_loop_nested :=
    one (SFor (asg (var "i") (num 0)) (SExpr (EBin Ast.BLt (var "i") (num 2))) (Some (EPost true (var "i")))
              (SBlock (one (SFor (asg (var "j") (num 0)) (SExpr (EBin Ast.BLt (var "j") (num 2))) (Some (EPost true (var "j")))
                                 (SBlock (one (SExpr (EAssign AAdd (reg "R" "x") (num 1))))))))).
  Definition p_loop_u8 :=
    SCons (SDecl [TS_intN false 8] "c" (Some (num 0)))
   (SCons (SFor (asg (var "c") (num 0)) (SExpr (EBin Ast.BLt (var "c") (num 2))) (Some (EPost true (var "c")))
                (SBlock (one (asg (reg "R" "d") (reg "R" "s"))))) SNil).
  Example loops_not_covered : map (covered 0) [p_loop_nested; p_loop_u8] = [false; false].
  Proof. vm_compute. reflexivity. Qed.

  (* { RdV = RsV / RtV; }
     NOT covered: division is neither [is_folding_op] nor [is_plain_op] (pf_bin): pfrag_check is false on the
     right-hand side.  (The two configurations also translate it differently: the repair fx_divmod is off in the
     real one.) *)
  Definition p_div := one (asg (reg "R" "d") (EBin Ast.BDiv (reg "R" "s") (reg "R" "t"))).
  Example div_not_covered :
    covered 0 p_div = false /\ sfrags_check (rw_of_prog p_div) (IM_of p_div) [] [] p_div = None /\
    tinfo_res_eqb (tlower_info (cfg_insn 0) p_div) (tlower_info (cfg_thm 0) p_div) = false.
  Proof. repeat split; vm_compute; reflexivity. Qed.

  (* { RdV = RsV; RddV = RssV; }
     NOT covered: RsV and RssV share the operand handle ISA2REG(hi,'s').  rw_of_prog gives it the width of its
     first use (RsV: 32), and pf_reg for RssV needs rw (RIsa "R" "s" false) = dest_w "R" APR = 64.  No width
     environment satisfies both.  The translations themselves agree: the width equation is the only failing
     conjunct. *)
  Definition p_mix := SCons (asg (reg "R" "d") (reg "R" "s")) (SCons (asg (reg "R" "dd") (reg "R" "ss")) SNil).
  Example mix_not_covered :
    covered 0 p_mix = false /\ sfrags_check (rw_of_prog p_mix) (IM_of p_mix) [] [] p_mix = None /\
    rw_of_prog p_mix (RIsa "R" "s" false) = 32%N /\
    tinfo_res_eqb (tlower_info (cfg_insn 0) p_mix) (tlower_info (cfg_thm 0) p_mix) = true.
  Proof. repeat split; vm_compute; reflexivity. Qed.
  (* ... and indeed no rw at all puts it into the fragment *)
  Example mix_not_in_fragment : forall rw IM D' V', ~ sfrags rw IM [] [] p_mix D' V'.
  Proof.
    intros rw IM D' V' H. apply sfrags_check_complete in H. unfold p_mix, one, asg, reg in H.
    cbn [sfrags_check sfrag_check pfrag_check dest_cls_b existsb String.eqb Ascii.eqb Bool.eqb orb andb] in H.
    unfold regw_b in H. cbn in H.
    destruct (N.eqb_spec (rw (RIsa "R" "s" false)) 32) as [E|_]; [|destruct (rw (RIsa "R" "d" false) =? 32)%N; discriminate H].
    rewrite E in H. destruct (rw (RIsa "R" "d" false) =? 32)%N; cbn in H; try discriminate H.
    destruct (rw (RIsa "R" "d" false) =? 64)%N; discriminate H.
  Qed.

  (* a local named like a parameter of the instruction routine: the real configuration rejects the declaration
     ("already defined as parameter"), the parameter-free configuration of the theorem accepts it: not covered,
     although the behaviour is in the fragment *)
  Definition p_pkt := SCons (SDecl [TS_intN true 32] "pkt" (Some (num 1))) (SCons (asg (reg "R" "d") (var "pkt")) SNil).
  Example pkt_not_covered :
    covered 0 p_pkt = false /\
    (match sfrags_check (rw_of_prog p_pkt) (IM_of p_pkt) [] [] p_pkt with Some _ => true | None => false end) = true.
  Proof. split; vm_compute; reflexivity. Qed.
End CheckExamples.
