(* The table-driven reference parser of lib/CParse.v reads back every expression from its
   minimal-parentheses printed form (round trip, all expressions, explicit fuel), hence the printed form
   determines the expression (unambiguity). *)
From Coq Require Import List String Bool Arith Lia.
From RZ.gen Require Import GrammarTables.
From RZ.lib Require Import CParse.
Import ListNotations.
Local Open Scope string_scope.
Local Open Scope list_scope.
Local Open Scope nat_scope.

(* The three functions of lib/CParse.v one fuel step deep (copies of their bodies: they follow an edit of CParse.v). *)
Lemma parse_at_S : forall t f max ts,
  parse_at t (S f) max ts =
  match parse_prefix t f ts with
  | Some (u, r) => loop t f max true u r
  | None => None
  end.
Proof. reflexivity. Qed.

Lemma parse_prefix_S : forall t f ts,
  parse_prefix t (S f) ts =
  match ts with
  | TLeaf l :: r => Some (ELeaf l, r)
  | TLP :: r =>
      match parse_at t f (lv_top t) r with
      | Some (e, TRP :: r') => Some (e, r')
      | _ => None
      end
  | TOp s :: r =>
      if mem s (t_un t) then
        match parse_prefix t f r with
        | Some (a, r') => Some (EUn s a, r')
        | None => None
        end
      else None
  | _ => None
  end.
Proof. reflexivity. Qed.

Lemma loop_S : forall t f max fresh lhs ts,
  loop t (S f) max fresh lhs ts =
  match ts with
  | TOp s :: r =>
      match bin_level t s with
      | Some (k, ra) =>
          if k <=? max then
            match parse_at t f (if ra then k else k - 1) r with
            | Some (rhs, r') => loop t f max false (EBin s lhs rhs) r'
            | None => None
            end
          else Some (lhs, ts)
      | None =>
          if fresh && (lv_top t <=? max) && mem s (t_asg t) then
            match parse_at t f (lv_top t) r with
            | Some (rhs, r') => loop t f max false (EAsg s lhs rhs) r'
            | None => None
            end
          else Some (lhs, ts)
      end
  | TQ :: r =>
      if lv_cond t <=? max then
        match parse_at t f (lv_top t) r with
        | Some (a, TColon :: r') =>
            match parse_at t f (lv_cond t) r' with
            | Some (b, r'') => loop t f max false (ECond lhs a b) r''
            | None => None
            end
        | _ => None
        end
      else Some (lhs, ts)
  | _ => Some (lhs, ts)
  end.
Proof. reflexivity. Qed.

(* more fuel never hurts *)
Definition mono_at t f := forall max ts res f', parse_at t f max ts = Some res -> f <= f' -> parse_at t f' max ts = Some res.
Definition mono_prefix t f := forall ts res f', parse_prefix t f ts = Some res -> f <= f' -> parse_prefix t f' ts = Some res.
Definition mono_loop t f := forall max fr lhs ts res f', loop t f max fr lhs ts = Some res -> f <= f' -> loop t f' max fr lhs ts = Some res.

(* At fuel S f each of the three functions is a cascade of matches in which fuel only enters through calls at
   fuel f.  Walk down the cascade in the hypothesis H; a call that answered at fuel f answers the same in the
   goal at fuel f' (IHa, IHp), the other scrutinees are shared with the goal; at the end stands H itself or the
   loop's tail call (IHl). *)
Ltac mono_cases IHa IHp IHl Hle H :=
  repeat match type of H with
    | match parse_at ?t ?f ?m ?ts with _ => _ end = _ =>
        let Hq := fresh "Hq" in
        destruct (parse_at t f m ts) as [[? ?]|] eqn:Hq; [rewrite (IHa _ _ _ _ Hq Hle) | discriminate H]
    | match parse_prefix ?t ?f ?ts with _ => _ end = _ =>
        let Hq := fresh "Hq" in
        destruct (parse_prefix t f ts) as [[? ?]|] eqn:Hq; [rewrite (IHp _ _ _ Hq Hle) | discriminate H]
    | match ?x with _ => _ end = _ => destruct x; try discriminate H
    end;
  first [exact H | exact (IHl _ _ _ _ _ _ H Hle)].

Lemma fuel_mono : forall t f, mono_at t f /\ mono_prefix t f /\ mono_loop t f.
Proof.
  intros t f. induction f as [|f [IHa [IHp IHl]]].
  - repeat split; intros until f'; intros H; discriminate H.
  - repeat split; intros until f'; intros H Hle; (destruct f' as [|f']; [lia|]); apply le_S_n in Hle;
      rewrite ?parse_at_S, ?parse_prefix_S, ?loop_S in *; mono_cases IHa IHp IHl Hle H.
Qed.

Lemma parse_at_mono : forall t f f' max ts res,
  parse_at t f max ts = Some res -> f <= f' -> parse_at t f' max ts = Some res.
Proof. intros t f f' max ts res H Hle. exact (proj1 (fuel_mono t f) _ _ _ _ H Hle). Qed.
Lemma parse_prefix_mono : forall t f f' ts res,
  parse_prefix t f ts = Some res -> f <= f' -> parse_prefix t f' ts = Some res.
Proof. intros t f f' ts res H Hle. exact (proj1 (proj2 (fuel_mono t f)) _ _ _ H Hle). Qed.
Lemma loop_mono : forall t f f' max fr lhs ts res,
  loop t f max fr lhs ts = Some res -> f <= f' -> loop t f' max fr lhs ts = Some res.
Proof. intros t f f' max fr lhs ts res H Hle. exact (proj2 (proj2 (fuel_mono t f)) _ _ _ _ _ _ H Hle). Qed.

Lemma find_bin_range : forall ls k0 s k ra,
  find_bin ls k0 s = Some (k, ra) -> k0 <= k /\ k < k0 + List.length ls.
Proof.
  induction ls as [|[ra0 ops] ls IH]; intros k0 s k ra H; cbn [find_bin] in H.
  - discriminate H.
  - cbn [List.length]. destruct (mem s ops).
    + injection H as Hk Hr. lia.
    + apply IH in H. lia.
Qed.

Lemma find_bin_assoc : forall ls k0 s s' k ra ra',
  find_bin ls k0 s = Some (k, ra) -> find_bin ls k0 s' = Some (k, ra') -> ra = ra'.
Proof.
  induction ls as [|[ra0 ops] ls IH]; intros k0 s s' k ra ra' H H'; cbn [find_bin] in H, H'.
  - discriminate H.
  - destruct (mem s ops), (mem s' ops).
    + injection H as Hk Hr. injection H' as Hk' Hr'. congruence.
    + injection H as Hk Hr. apply find_bin_range in H'. lia.
    + injection H' as Hk' Hr'. apply find_bin_range in H. lia.
    + exact (IH _ _ _ _ _ _ H H').
Qed.

Lemma bin_level_range : forall t s k ra, bin_level t s = Some (k, ra) -> 1 <= k /\ k <= nbin t.
Proof. intros t s k ra H. unfold bin_level in H. apply find_bin_range in H. unfold nbin. lia. Qed.

Lemma wf_table_asg : forall t s, wf_table t = true -> mem s (t_asg t) = true -> bin_level t s = None.
Proof.
  intros t s Hwf Hm. unfold wf_table in Hwf. rewrite forallb_forall in Hwf.
  unfold mem in Hm. apply existsb_exists in Hm. destruct Hm as [x [Hin Heq]].
  apply String.eqb_eq in Heq. subst x. specialize (Hwf s Hin).
  destruct (bin_level t s); [discriminate Hwf|reflexivity].
Qed.

(* the extension loop at level max leaves ts alone: the next token is no operator, or one that binds looser than max *)
Definition stops (t : table) (max : nat) (ts : list token) : bool :=
  match ts with
  | TOp s :: _ =>
      match bin_level t s with
      | Some (k, _) => max <? k
      | None => if mem s (t_asg t) then max <? lv_top t else true
      end
  | TQ :: _ => max <? lv_cond t
  | _ => true
  end.

Lemma stops_mono : forall t m m' ts, m <= m' -> stops t m' ts = true -> stops t m ts = true.
Proof.
  (* in every case that does not stop outright the answer is a comparison m' <? k for some level k *)
  intros t m m' ts Hle H. destruct ts as [|[l|s| | | |] r]; cbn [stops] in *; try reflexivity;
    [destruct (bin_level t s) as [[k ra]|]; [|destruct (mem s (t_asg t)); [|reflexivity]] |];
    apply Nat.ltb_lt in H; apply Nat.ltb_lt; lia.
Qed.

Lemma stops_0 : forall t ts, stops t 0 ts = true.
Proof.
  intros t ts. destruct ts as [|[l|s| | | |] r]; cbn [stops]; try reflexivity.
  destruct (bin_level t s) as [[k ra]|] eqn:Hb; [|destruct (mem s (t_asg t)); reflexivity].
  apply bin_level_range in Hb. apply Nat.ltb_lt. lia.
Qed.

Lemma loop_stop : forall t f max fr lhs ts,
  stops t max ts = true -> loop t (S f) max fr lhs ts = Some (lhs, ts).
Proof.
  (* stops answers max <? k exactly where the loop asks k <=? max *)
  intros t f max fr lhs ts H. rewrite loop_S. destruct ts as [|[l|s| | | |] r]; cbn [stops] in H; try reflexivity;
    [destruct (bin_level t s) as [[k ra]|]; [|destruct (mem s (t_asg t)); [|rewrite andb_false_r; reflexivity]] |];
    apply Nat.ltb_lt, Nat.leb_gt in H; rewrite H, ?andb_false_r; reflexivity.
Qed.

(* single steps of the extension loop *)
Lemma loop_bin : forall t f max fr lhs s k ra r rhs r',
  bin_level t s = Some (k, ra) -> k <= max ->
  parse_at t f (if ra then k else k - 1) r = Some (rhs, r') ->
  loop t (S f) max fr lhs (TOp s :: r) = loop t f max false (EBin s lhs rhs) r'.
Proof.
  intros t f max fr lhs s k ra r rhs r' Hb Hk Hp. rewrite loop_S, Hb.
  apply Nat.leb_le in Hk. rewrite Hk, Hp. reflexivity.
Qed.

Lemma loop_asg : forall t f max lhs s r rhs r',
  bin_level t s = None -> mem s (t_asg t) = true -> lv_top t <= max ->
  parse_at t f (lv_top t) r = Some (rhs, r') ->
  loop t (S f) max true lhs (TOp s :: r) = loop t f max false (EAsg s lhs rhs) r'.
Proof.
  intros t f max lhs s r rhs r' Hb Hm Hk Hp. rewrite loop_S, Hb, Hm.
  apply Nat.leb_le in Hk. rewrite Hk, Hp. reflexivity.
Qed.

Lemma loop_cond : forall t f max fr lhs r a r' b r'',
  lv_cond t <= max ->
  parse_at t f (lv_top t) r = Some (a, TColon :: r') ->
  parse_at t f (lv_cond t) r' = Some (b, r'') ->
  loop t (S f) max fr lhs (TQ :: r) = loop t f max false (ECond lhs a b) r''.
Proof.
  intros t f max fr lhs r a r' b r'' Hk Hp Hp'. rewrite loop_S.
  apply Nat.leb_le in Hk. rewrite Hk, Hp, Hp'. reflexivity.
Qed.

(* printed form without the outer parentheses (pr without its `paren`: pr_raw) *)
Definition raw (t : table) (e : rexpr) : list token :=
  match e with
  | ELeaf l => [TLeaf l]
  | EUn op a => TOp op :: pr t a 0
  | EBin op a b =>
      match bin_level t op with
      | Some (k, ra) => pr t a (if ra then k - 1 else k) ++ TOp op :: pr t b (if ra then k else k - 1)
      | None => pr t a 0 ++ TOp op :: pr t b 0
      end
  | ECond c a b => pr t c (nbin t) ++ TQ :: pr t a (lv_top t) ++ TColon :: pr t b (lv_cond t)
  | EAsg op l r => pr t l 0 ++ TOp op :: pr t r (lv_top t)
  end.

Lemma pr_raw : forall t e m, pr t e m = paren (level t e <=? m) (raw t e).
Proof. intros t e m. destruct e; reflexivity. Qed.

(* the level at which the rightmost operand of an unparenthesised expression is read *)
Definition rlevel (t : table) (e : rexpr) : nat :=
  match e with
  | ELeaf _ | EUn _ _ => 0
  | EBin op _ _ => match bin_level t op with Some (k, ra) => if ra then k else k - 1 | None => 0 end
  | ECond _ _ _ => lv_cond t
  | EAsg _ _ _ => lv_top t
  end.

(* pr t e m, the text of e printed as an operand at level m, is parenthesised iff level t e > m.
   opn: the level at which that text leaves its rightmost operand open to extension (0 when it ends in `)`).
   prefix_like: parse_prefix alone reads that text completely (a leaf, a prefix operator, or a parenthesis). *)
Definition opn (t : table) (e : rexpr) (m : nat) : nat := if level t e <=? m then rlevel t e else 0.
Definition prefix_like (t : table) (e : rexpr) (m : nat) : bool := (level t e =? 0) || negb (level t e <=? m).

Lemma level_le_top : forall t e, level t e <= lv_top t.
Proof.
  intros t e. pose proof (fun s k ra => bin_level_range t s k ra) as Hr.
  destruct e; cbn [level]; unfold lv_top, lv_cond; try lia.
  destruct (bin_level t op) as [[k ra]|] eqn:Hb; [specialize (Hr _ _ _ Hb); lia|lia].
Qed.

Lemma opn_le : forall t e m, opn t e m <= m.
Proof.
  intros t e m. unfold opn. destruct (level t e <=? m) eqn:H; [|lia].
  apply Nat.leb_le in H. destruct e; cbn [rlevel level] in *; try lia.
  destruct (bin_level t op) as [[k ra]|]; [destruct ra; lia|lia].
Qed.

Lemma prefix_like_0 : forall t e, prefix_like t e 0 = true.
Proof.
  intros t e. unfold prefix_like. destruct (level t e) as [|n]; reflexivity.
Qed.

(* what follows a left operand of a binary operator never extends that operand *)
Lemma opn_lt_bin : forall t a op k ra,
  bin_level t op = Some (k, ra) -> opn t a (if ra then k - 1 else k) < k.
Proof.
  intros t a op k ra Hb. pose proof (bin_level_range _ _ _ _ Hb) as Hr.
  unfold opn. destruct (level t a <=? (if ra then k - 1 else k)) eqn:Hl; [|lia].
  apply Nat.leb_le in Hl. destruct a as [l|op' a'|op' a' b'|c' a' b'|op' l' r']; cbn [rlevel level] in *; try lia.
  - destruct (bin_level t op') as [[j ra']|] eqn:Hb'; [|lia].
    destruct ra.
    + destruct ra'; lia.
    + destruct (Nat.eq_dec j k) as [E|E].
      * subst j. rewrite (find_bin_assoc _ _ _ _ _ _ _ Hb' Hb). lia.
      * destruct ra'; lia.
  - unfold lv_cond in Hl. destruct ra; lia.
  - unfold lv_top in Hl. destruct ra; lia.
Qed.

(* The statements carried through the induction (fuel weight 10 per node).  P*: parse_prefix reads the text of e and
   returns e.  G*: parse_at reads it and goes on; stated in continuation form - whatever the extension loop answers when
   started with e already read (at fuel f), parse_at answers on the text of e followed by rest (at fuel F) - so that
   the caller chooses what follows.  *raw: the text without outer parentheses; *full: pr t e m.  Main: what follows does not extend e (stops). *)
Definition Praw (t : table) (e : rexpr) : Prop :=
  level t e = 0 -> forall rest F, 10 * size e <= F ->
  parse_prefix t F (raw t e ++ rest) = Some (e, rest).

Definition Graw (t : table) (e : rexpr) : Prop :=
  forall max rest f F res,
    level t e <= max -> stops t (rlevel t e) rest = true ->
    loop t f max (level t e =? 0) e rest = Some res ->
    f + 10 * size e + 1 <= F ->
    parse_at t F max (raw t e ++ rest) = Some res.

Definition Pfull (t : table) (e : rexpr) : Prop :=
  forall m rest F, prefix_like t e m = true -> 10 * size e + 3 <= F ->
  parse_prefix t F (pr t e m ++ rest) = Some (e, rest).

Definition Gfull (t : table) (e : rexpr) : Prop :=
  forall m max rest f F res,
    m <= max -> stops t (opn t e m) rest = true ->
    loop t f max (prefix_like t e m) e rest = Some res ->
    f + 10 * size e + 4 <= F ->
    parse_at t F max (pr t e m ++ rest) = Some res.

Definition Main (t : table) (e : rexpr) : Prop :=
  forall m rest F, stops t m rest = true -> 10 * size e + 5 <= F ->
  parse_at t F m (pr t e m ++ rest) = Some (e, rest).

Lemma Graw_of_Praw : forall t e, level t e = 0 -> Praw t e -> Graw t e.
Proof.
  intros t e H0 HP max rest f F res Hle Hst Hloop HF.
  destruct F as [|F1]; [lia|]. rewrite parse_at_S.
  rewrite (HP H0 rest F1) by lia.
  rewrite H0 in Hloop. cbn [Nat.eqb] in Hloop.
  apply (loop_mono _ _ _ _ _ _ _ _ Hloop). lia.
Qed.

Lemma lift_raw : forall t e, Praw t e /\ Graw t e -> Pfull t e /\ Gfull t e /\ Main t e.
Proof.
  intros t e [HP HG].
  assert (HPf : Pfull t e).
  { intros m rest F Hpl HF. rewrite pr_raw. unfold prefix_like in Hpl.
    destruct (level t e <=? m) eqn:Hlm; cbn [paren].
    - cbn [negb] in Hpl. rewrite orb_false_r in Hpl. apply Nat.eqb_eq in Hpl.
      apply (HP Hpl). lia.
    - destruct F as [|F1]; [lia|]. rewrite parse_prefix_S. cbn [app].
      rewrite <- app_assoc. cbn [app].
      rewrite (HG (lv_top t) (TRP :: rest) 1 F1 (e, TRP :: rest));
        [reflexivity|apply level_le_top|reflexivity|apply loop_stop; reflexivity|lia]. }
  assert (HGf : Gfull t e).
  { intros m max rest f F res Hle Hst Hloop HF.
    destruct (prefix_like t e m) eqn:Hpl.
    - destruct F as [|F1]; [lia|]. rewrite parse_at_S.
      rewrite (HPf m rest F1 Hpl) by lia.
      apply (loop_mono _ _ _ _ _ _ _ _ Hloop). lia.
    - unfold prefix_like in Hpl. apply orb_false_elim in Hpl. destruct Hpl as [Hz Hfit].
      apply negb_false_iff in Hfit. rewrite pr_raw, Hfit. cbn [paren].
      unfold opn in Hst. rewrite Hfit in Hst. apply Nat.leb_le in Hfit.
      apply (HG max rest f F res); [lia|exact Hst| |lia].
      rewrite Hz. exact Hloop. }
  repeat split; [exact HPf|exact HGf|]. intros m rest F Hst HF.
  apply (HGf m m rest 1 F (e, rest)); [lia| | |lia].
  - apply (stops_mono t _ m); [apply opn_le|exact Hst].
  - apply loop_stop. exact Hst.
Qed.

Lemma core : forall t, wf_table t = true -> forall e, wf_expr t e = true -> Praw t e /\ Graw t e.
Proof.
  intros t Hwt. induction e as [l|op a IHa|op a IHa b IHb|c IHc a IHa b IHb|op l IHl r IHr];
    intros Hwe; cbn [wf_expr] in Hwe.
  - (* leaf *)
    assert (HP : Praw t (ELeaf l)).
    { intros _ rest F HF. cbn [size] in HF. destruct F as [|F1]; [lia|]. reflexivity. }
    split; [exact HP|]. apply Graw_of_Praw; [reflexivity|exact HP].
  - (* unary prefix *)
    apply andb_true_iff in Hwe. destruct Hwe as [Hm Hwa].
    destruct (lift_raw t a (IHa Hwa)) as [HPa _].
    assert (HP : Praw t (EUn op a)).
    { intros _ rest F HF. cbn [size] in HF. destruct F as [|F1]; [lia|].
      rewrite parse_prefix_S. cbn [raw app]. rewrite Hm.
      rewrite (HPa 0 rest F1 (prefix_like_0 t a)) by lia. reflexivity. }
    split; [exact HP|]. apply Graw_of_Praw; [reflexivity|exact HP].
  - (* binary: the left operand's Gfull is given the loop that has already taken the operator step (loop_bin), whose
       right operand is read by Main for b; the conditional case does the same with loop_cond *)
    apply andb_true_iff in Hwe. destruct Hwe as [Hwe Hwb].
    apply andb_true_iff in Hwe. destruct Hwe as [Hb Hwa].
    destruct (bin_level t op) as [[k ra]|] eqn:Hbl; [clear Hb|discriminate Hb].
    pose proof (bin_level_range _ _ _ _ Hbl) as Hr.
    destruct (lift_raw t a (IHa Hwa)) as [_ [HGa _]].
    destruct (lift_raw t b (IHb Hwb)) as [_ [_ HMb]].
    split.
    + intros H0. cbn [level] in H0. rewrite Hbl in H0. lia.
    + intros max rest f F res Hle Hst Hloop HF.
      cbn [level] in Hle, Hloop. cbn [rlevel] in Hst. rewrite Hbl in Hle, Hloop, Hst.
      cbn [size] in HF. cbn [raw]. rewrite Hbl. rewrite <- app_assoc. cbn [app].
      apply (HGa (if ra then k - 1 else k) max _ (S (f + 10 * size b + 5)) F res).
      * destruct ra; lia.
      * cbn [stops]. rewrite Hbl. apply Nat.ltb_lt. exact (opn_lt_bin t a op k ra Hbl).
      * rewrite (loop_bin t _ max _ a op k ra _ b rest Hbl Hle).
        -- destruct k as [|k']; [lia|]. cbn [Nat.eqb] in Hloop.
           apply (loop_mono _ _ _ _ _ _ _ _ Hloop). lia.
        -- apply HMb; [exact Hst|lia].
      * lia.
  - (* conditional *)
    apply andb_true_iff in Hwe. destruct Hwe as [Hwe Hwb].
    apply andb_true_iff in Hwe. destruct Hwe as [Hwc Hwa].
    destruct (lift_raw t c (IHc Hwc)) as [_ [HGc _]].
    destruct (lift_raw t a (IHa Hwa)) as [_ [_ HMa]].
    destruct (lift_raw t b (IHb Hwb)) as [_ [_ HMb]].
    split.
    + intros H0. cbn [level] in H0. unfold lv_cond in H0. lia.
    + intros max rest f F res Hle Hst Hloop HF.
      cbn [level] in Hle, Hloop. cbn [rlevel] in Hst.
      cbn [size] in HF. cbn [raw]. rewrite <- app_assoc. cbn [app].
      apply (HGc (nbin t) max _ (S (f + 10 * size a + 10 * size b + 5)) F res).
      * unfold lv_cond in Hle. lia.
      * cbn [stops]. apply Nat.ltb_lt. pose proof (opn_le t c (nbin t)). unfold lv_cond. lia.
      * rewrite (loop_cond t _ max _ c _ a (pr t b (lv_cond t) ++ rest) b rest Hle).
        -- unfold lv_cond in Hloop. cbn [Nat.eqb] in Hloop.
           apply (loop_mono _ _ _ _ _ _ _ _ Hloop). lia.
        -- rewrite <- app_assoc. cbn [app]. apply HMa; [reflexivity|lia].
        -- apply HMb; [exact Hst|lia].
      * lia.
  - (* assignment *)
    apply andb_true_iff in Hwe. destruct Hwe as [Hwe Hwr].
    apply andb_true_iff in Hwe. destruct Hwe as [Hm Hwl].
    pose proof (wf_table_asg t op Hwt Hm) as Hbl.
    destruct (lift_raw t l (IHl Hwl)) as [HPl _].
    destruct (lift_raw t r (IHr Hwr)) as [_ [_ HMr]].
    split.
    + intros H0. cbn [level] in H0. unfold lv_top in H0. lia.
    + intros max rest f F res Hle Hst Hloop HF.
      cbn [level] in Hle, Hloop. cbn [rlevel] in Hst.
      cbn [size] in HF. cbn [raw]. rewrite <- app_assoc. cbn [app].
      destruct F as [|F1]; [lia|]. rewrite parse_at_S.
      rewrite (HPl 0 _ F1 (prefix_like_0 t l)) by lia.
      destruct F1 as [|F2]; [lia|].
      rewrite (loop_asg t F2 max l op _ r rest Hbl Hm Hle).
      * unfold lv_top in Hloop. cbn [Nat.eqb] in Hloop.
        apply (loop_mono _ _ _ _ _ _ _ _ Hloop). lia.
      * apply HMr; [exact Hst|lia].
Qed.

Lemma length_paren : forall b ts, List.length ts <= List.length (paren b ts).
Proof. intros b ts. destruct b; cbn [paren List.length]; [lia|]. rewrite app_length. lia. Qed.

Lemma size_le_length : forall t e m, size e <= List.length (pr t e m).
Proof.
  intros t. induction e as [l|op a IHa|op a IHa b IHb|c IHc a IHa b IHb|op l IHl r IHr]; intros m;
    rewrite pr_raw; (eapply Nat.le_trans; [|apply length_paren]); cbn [raw size].
  - cbn [List.length]. lia.
  - cbn [List.length]. specialize (IHa 0). lia.
  - destruct (bin_level t op) as [[k ra]|]; rewrite app_length; cbn [List.length].
    + specialize (IHa (if ra then k - 1 else k)). specialize (IHb (if ra then k else k - 1)). lia.
    + specialize (IHa 0). specialize (IHb 0). lia.
  - rewrite app_length. cbn [List.length]. rewrite app_length. cbn [List.length].
    specialize (IHc (nbin t)). specialize (IHa (lv_top t)). specialize (IHb (lv_cond t)). lia.
  - rewrite app_length. cbn [List.length]. specialize (IHl 0). specialize (IHr (lv_top t)). lia.
Qed.

(* Round trip, every expression, explicit fuel bound in the size of the expression. *)
Theorem parse_print : forall t e fuel,
  wf_table t = true -> wf_expr t e = true -> 10 * size e + 5 <= fuel ->
  parse t fuel (print t e) = Some e.
Proof.
  intros t e fuel Hwt Hwe HF. unfold parse, print.
  destruct (lift_raw t e (core t Hwt e Hwe)) as [_ [_ HM]].
  pose proof (HM (lv_top t) [] fuel eq_refl HF) as H. rewrite app_nil_r in H.
  rewrite H. reflexivity.
Qed.
Print Assumptions parse_print.

(* Round trip with the fuel computed from the token list alone. *)
Theorem parse_print_fuel_for : forall t e,
  wf_table t = true -> wf_expr t e = true ->
  parse t (fuel_for (print t e)) (print t e) = Some e.
Proof.
  intros t e Hwt Hwe. apply parse_print; [exact Hwt|exact Hwe|].
  unfold fuel_for, print. pose proof (size_le_length t e (lv_top t)). lia.
Qed.
Print Assumptions parse_print_fuel_for.

Corollary parse_print_exists : forall t e,
  wf_table t = true -> wf_expr t e = true -> exists fuel, parse t fuel (print t e) = Some e.
Proof. intros t e Hwt Hwe. exists (10 * size e + 5). apply parse_print; auto. Qed.

(* Unambiguity: the minimal-parentheses printed form determines the expression. *)
Corollary print_injective : forall t e1 e2,
  wf_table t = true -> wf_expr t e1 = true -> wf_expr t e2 = true ->
  print t e1 = print t e2 -> e1 = e2.
Proof.
  intros t e1 e2 Hwt H1 H2 Heq.
  pose proof (parse_print_fuel_for t e1 Hwt H1) as P1.
  pose proof (parse_print_fuel_for t e2 Hwt H2) as P2.
  rewrite Heq in P1. rewrite P1 in P2. injection P2 as E. exact E.
Qed.
Print Assumptions print_injective.

(* the same, for any context level (operands, not only whole expressions) *)
Corollary pr_injective : forall t m e1 e2,
  wf_table t = true -> wf_expr t e1 = true -> wf_expr t e2 = true ->
  pr t e1 m = pr t e2 m -> e1 = e2.
Proof.
  intros t m e1 e2 Hwt H1 H2 Heq.
  destruct (lift_raw t e1 (core t Hwt e1 H1)) as [_ [_ M1]].
  destruct (lift_raw t e2 (core t Hwt e2 H2)) as [_ [_ M2]].
  pose proof (M1 m [] (10 * size e1 + 10 * size e2 + 5) eq_refl ltac:(lia)) as P1.
  pose proof (M2 m [] (10 * size e1 + 10 * size e2 + 5) eq_refl ltac:(lia)) as P2.
  rewrite Heq in P1. rewrite P1 in P2. injection P2 as E. exact E.
Qed.
Print Assumptions pr_injective.

Lemma c11_table_wf : wf_table c11_table = true.
Proof. vm_compute. reflexivity. Qed.

Lemma c11_table_nodup : table_nodup c11_table = true.
Proof. vm_compute. reflexivity. Qed.

(* the table is the regenerated tower: ten binary levels with the tower's spellings and associativity,
   the tower's conditional and assignment levels are the right-associative ones *)
Lemma c11_table_is_tower :
  map (fun lv : bool * list string => (if fst lv then "right" else "left", snd lv)) (t_bin c11_table)
    = map (fun x : string * string * string * list string => let '(_, a, _, ops) := x in (a, ops)) (firstn 10 tower)
  /\ map (fun x : string * string * string * list string => let '(n, a, _, ops) := x in (n, a, ops)) (skipn 10 tower)
    = [("conditional_expr", "right", ["?:"]); ("assignment_expr", "right", t_asg c11_table)]
  /\ nbin c11_table = 10.
Proof. vm_compute. repeat split; reflexivity. Qed.

Theorem parse_c11_print : forall e, wf_expr c11_table e = true -> parse_c11 (print c11_table e) = Some e.
Proof. intros e Hwe. unfold parse_c11. apply parse_print_fuel_for; [exact c11_table_wf|exact Hwe]. Qed.
Print Assumptions parse_c11_print.

Corollary print_c11_injective : forall e1 e2,
  wf_expr c11_table e1 = true -> wf_expr c11_table e2 = true ->
  print c11_table e1 = print c11_table e2 -> e1 = e2.
Proof. intros e1 e2. apply print_injective. exact c11_table_wf. Qed.
Print Assumptions print_c11_injective.

Definition i (s : string) : token := TLeaf (LId s).
Definition v (s : string) : rexpr := ELeaf (LId s).

Example ex_sub_left : option_map show (parse_c11 [i "a"; TOp "-"; i "b"; TOp "-"; i "c"]) = Some "(- (- a b) c)".
Proof. vm_compute. reflexivity. Qed.
Example ex_asg_right : option_map show (parse_c11 [i "a"; TOp "="; i "b"; TOp "="; i "c"]) = Some "(= a (= b c))".
Proof. vm_compute. reflexivity. Qed.
Example ex_cond_right :
  option_map show (parse_c11 [i "a"; TQ; i "b"; TColon; i "c"; TQ; i "d"; TColon; i "e"]) = Some "(?: a b (?: c d e))".
Proof. vm_compute. reflexivity. Qed.
Example ex_cond_middle :
  option_map show (parse_c11 [i "a"; TQ; i "b"; TOp "="; i "c"; TColon; i "d"]) = Some "(?: a (= b c) d)".
Proof. vm_compute. reflexivity. Qed.
Example ex_add_mul : option_map show (parse_c11 [i "a"; TOp "+"; i "b"; TOp "*"; i "c"]) = Some "(+ a (* b c))".
Proof. vm_compute. reflexivity. Qed.
Example ex_mul_paren :
  option_map show (parse_c11 [i "a"; TOp "*"; TLP; i "b"; TOp "+"; i "c"; TRP]) = Some "(* a (+ b c))".
Proof. vm_compute. reflexivity. Qed.
Example ex_mul_paren_kept :
  print c11_table (EBin "*" (v "a") (EBin "+" (v "b") (v "c"))) = [i "a"; TOp "*"; TLP; i "b"; TOp "+"; i "c"; TRP].
Proof. vm_compute. reflexivity. Qed.
Example ex_sub_paren_right :
  print c11_table (EBin "-" (v "a") (EBin "-" (v "b") (v "c"))) = [i "a"; TOp "-"; TLP; i "b"; TOp "-"; i "c"; TRP]
  /\ print c11_table (EBin "-" (EBin "-" (v "a") (v "b")) (v "c")) = [i "a"; TOp "-"; i "b"; TOp "-"; i "c"].
Proof. vm_compute. split; reflexivity. Qed.
Example ex_asg_paren_left :
  print c11_table (EAsg "=" (EAsg "=" (v "a") (v "b")) (v "c")) = [TLP; i "a"; TOp "="; i "b"; TRP; TOp "="; i "c"]
  /\ print c11_table (EAsg "=" (v "a") (EAsg "=" (v "b") (v "c"))) = [i "a"; TOp "="; i "b"; TOp "="; i "c"].
Proof. vm_compute. split; reflexivity. Qed.
Example ex_neg_mul : option_map show (parse_c11 [TOp "-"; i "a"; TOp "*"; i "b"]) = Some "(* (- a) b)".
Proof. vm_compute. reflexivity. Qed.
Example ex_neg_paren :
  print c11_table (EUn "-" (EBin "*" (v "a") (v "b"))) = [TOp "-"; TLP; i "a"; TOp "*"; i "b"; TRP].
Proof. vm_compute. reflexivity. Qed.
Example ex_levels :
  option_map show (parse_c11 [i "a"; TOp "||"; i "b"; TOp "&&"; i "c"; TOp "|"; i "d"; TOp "^"; i "e"; TOp "&"; i "f";
                              TOp "=="; i "g"; TOp "<"; i "h"; TOp "<<"; i "j"; TOp "+"; i "k"; TOp "*"; TOp "~"; i "l"])
  = Some "(|| a (&& b (| c (^ d (& e (== f (< g (<< h (+ j (* k (~ l)))))))))))".
Proof. vm_compute. reflexivity. Qed.
Example ex_not_an_lvalue_shape : parse_c11 [i "a"; TOp "+"; i "b"; TOp "="; i "c"] = None.
Proof. vm_compute. reflexivity. Qed.
Example ex_compound_asg :
  option_map show (parse_c11 [i "a"; TOp "<<="; i "b"; TOp "<<"; i "c"; TQ; i "d"; TColon; i "e"])
  = Some "(<<= a (?: (<< b c) d e))".
Proof. vm_compute. reflexivity. Qed.
