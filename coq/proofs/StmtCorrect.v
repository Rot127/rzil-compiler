(* Semantic correctness of the lowering of STATEMENTS, for the REPAIRED compiler model
   (cfg_fx = all_fixes): whenever C11 (sem/CSem.v, cexec / cexecs) executes a statement (list) of the
   fragment [sfrag] / [sfrags] from a state cs to a state cs', the emitted RzIL effect -- the effect
   items returned by Lower.lower_stmt / Lower.lower_stmts, sequenced and finalised exactly as
   Lower.tlower_info does -- runs (sem/RzIL.v, exec) from every related machine state ms to a state
   ms' related to cs'.  Source order of effects and the C condition of every branch are thereby
   proved for every program of the fragment, every pair of related states, without any bound on the
   length of sequences or the nesting depth.  Builds on proofs/ExprCorrect.v (pure expressions).

   The fragment ([sfrag rw IM D V s D' V'], D / D' = the DECLARED locals before / after, V / V' = those of them that
   have a value (ExprCorrect.vext V D), IM = the immediate letters the behaviour uses, rw = the width the machine
   gives every operand handle):
     RdV = e;  RxxV = e;  PdV = e; ...   assignment of a pfrag expression to a destination register operand
     HEX_REG_ALIAS_<n> = e;              assignment to one of the 18 aliased control registers (ExprCorrect.alias_names)
     P0 = e;  ... P3, R29, R30, R31      assignment to an explicitly named register (fWRITE_P0(e); ExprCorrect.expl_names;
                                         premise ExprCorrect.xi_ok: the C semantics is given the table of these registers)
     riV = e;                            assignment to an immediate (fPCALIGN: riV = riV & ~3)
     RxV += e;  -= *= &= |= ^= <<= >>=   compound assignment to a register operand
     x = e;   x += e;  -= *= &= |= ^= <<= >>=   assignment / compound assignment to a declared integer local that has a value
     T x = e;                            declaration with initialiser of a FRESH name
     T x;   ...   x = e;                 declaration without initialiser; the FIRST assignment gives the value
                                         (also in both arms of an if / else)
     EA = e;  i = e;  j = e;  k = e;     first assignment of an implicitly declared name (uint32_t)
     mem_store_<s|u><w>(a, v);           memory store
     JUMP(e);                            jump (the RzIL locals jump_flag / jump_target mirror C's jump state)
     cancel_slot;  STORE_SLOT_CANCELLED(a, b);     (CSem gives these no meaning: the simulation is vacuous on the
                                         paths that execute them; the lowering itself and all other paths are proved)
     ;   NOP   {}   { s1 ... sn }        empty statements, blocks and sequences of any length
     if (e) s1   if (e) s1 else s2       with pfrag condition and declaration-free branches of the fragment
     for (i = e0; c; i++) body           (also i--): i a 32 bit local with a value after the initialisation, c a pfrag
                                         condition, body a loop-free statement of the fragment that declares nothing.
                                         The compiler turns i++ into a pending "hybrid" effect (temporary h_tmp<n> :=
                                         i; i := INC(i)) that chk_hybrid_dep sequences after the body; the theorem
                                         covers every number of iterations (induction on CSem's loop, RzIL REPEAT).
   where the expressions e (ExprCorrect.pfrag) read declared locals, literals, SOURCE REGISTER operands
   (RsV RtV RuV RvV RwV, read-write RxV RyV RzV, pairs RssV .. RxxV, classes R P C M), DESTINATION
   operands read back (RdV ReV RddV: the value written so far, else 0), .new operands (PuN NsN ...),
   IMMEDIATES (siV uiV ...), aliased control registers and the PC alias, explicitly named registers (P0 .. P3, R29 .. R31), memory loads under a cast, the pure
   macros (extract / sextract / deposit / bswap) and sizeof.
   Main results: [stmt_correct] (lower_stmt), [stmts_correct] (lower_stmts), [tlower_correct_uniform] (the one FragCheck
   builds on: one effect for every environment), [tlower_correct] and [tlower_correct_fuel] (tlower_info / tlower, including the final wrapping: the immediate prologue and
   the finalisation of register operands against the final register table; the final hybrid counter h' is
   cfg_hstart plus the number of loops), [Example.prog_simulated],
   [Example.prog2_simulated] (registers and an immediate), [Example.prog3_simulated] (predicates, pairs, .new),
   [Example.prog4_simulated] (a local named like an unused immediate letter), [Example.prog5_simulated] (accumulate).

   Outside the fragment, and why (see also Example.redeclaration_counterexample,
   Example.imm_local_clash_refuted, Example.nreg_not_new_refuted):
   - declarations inside the branches of an `if` or inside a loop body: the model's variable table is flat and keeps
     such a variable, while at run time it is not declared when the branch / body did not run;
   - re-declaration of a name: the model mistranslates it (counterexample below);
   - a local named like an immediate the behaviour uses, or like a compiler temporary h_tmp<n> (the fragment is
     parametrised by the set of letters IM; im_ok IM excludes the names jump_flag, jump_target, h_tmp...): the model
     keeps immediates, temporaries and locals in one table and confuses them (counterexample below);
   - loops inside a loop body, loop variables that are not 32 bits wide, while / do loops (the model rejects those),
     ++ / -- anywhere but as the step of a for loop, /= %= (the repaired and the real translation differ: D19),
     compound assignment to aliases / explicit registers, statement expressions, calls of sub-routines as values. *)
From Coq Require Import ZArith NArith List Bool String Ascii Lia.
From RZ.lib Require Import BV PyHeap.
From RZ.sem Require Import RzIL CSem.
From RZ.gen Require Import TypeRules.
From RZ.model Require Import Ast Types OpTables Lower.
From RZ.proofs Require Import SeqLaws SortSound ExprCorrect.
Import ListNotations.
Local Open Scope string_scope.
Local Open Scope Z_scope.
Local Open Scope list_scope.

Lemma wrap_interp_le s w W z : (w <= W)%N -> wrap w (interp (s, W) z) = wrap w z.
Proof.
  intros Hle. rewrite <- (wrap_wrap_le W w (interp (s, W) z)) by assumption.
  rewrite wrap_interp. apply wrap_wrap_le; assumption.
Qed.

Lemma wrap_vint_conv w t c : (w <= snd t)%N -> wrap w (vint (conv t c)) = wrap w (vint c).
Proof.
  intros Hle. destruct t as [s W]. unfold conv, mkval, vint at 1. cbn [fst snd] in *.
  rewrite wrap_interp_le by assumption. apply wrap_wrap_le; assumption.
Qed.

Lemma wrap_snd_conv w t c : (w <= snd t)%N -> wrap w (snd (conv t c)) = wrap w (vint c).
Proof. intros Hle. unfold conv, mkval. cbn [snd]. apply wrap_wrap_le; assumption. Qed.

Lemma conv_trunc sg w s W Y : (w <= W)%N -> conv (sg, w) ((s, W), wrap W Y) = ((sg, w), wrap w Y).
Proof.
  intros Hle. unfold conv, mkval, vint. cbn [fst snd]. f_equal.
  rewrite wrap_interp_le by assumption. apply wrap_wrap_le; assumption.
Qed.

Lemma promote_ge sg w : okw w -> (w <= snd (promote (sg, w)))%N.
Proof. intros H. okw_cases H; vm_compute; discriminate. Qed.

Lemma uac_ge s1 w1 s2 w2 : okw w1 -> okw w2 ->
  (w1 <= snd (uac (s1, w1) (s2, w2)))%N /\ (w2 <= snd (uac (s1, w1) (s2, w2)))%N.
Proof. intros H1 H2. okw_cases H1; okw_cases H2; destruct s1, s2; vm_compute; split; discriminate. Qed.

(* the common type of x and e is at least as wide as the type of x *)
Lemma arith_ty_ge sg w tr : okw w -> okw (snd tr) ->
  okw (snd (arith_ty (sg, w) tr)) /\ (w <= snd (arith_ty (sg, w) tr))%N.
Proof.
  intros Hw Hwr. destruct tr as [sr wr]. cbn [snd] in Hwr. unfold arith_ty.
  pose proof (promote_okw sg w Hw) as Hpw. pose proof (promote_ge sg w Hw) as Hpg. pose proof (promote_okw sr wr Hwr) as Hprw.
  destruct (promote (sg, w)) as [sp wp]. destruct (promote (sr, wr)) as [spr wpr]. cbn [fst snd] in *.
  split; [exact (uac_okw sp wp spr wpr Hpw Hprw) | pose proof (proj1 (uac_ge sp wp spr wpr Hpw Hprw)); lia].
Qed.

Definition ring_fun (f : Z -> Z -> Z) : Prop := f = Z.add \/ f = Z.sub \/ f = Z.mul.
Lemma ring_fun_wrap f w a b a' b' : ring_fun f -> wrap w a = wrap w a' -> wrap w b = wrap w b' ->
  wrap w (f a b) = wrap w (f a' b').
Proof.
  intros [-> | [-> | ->]] Ha Hb.
  - rewrite (wrap_add w a b), (wrap_add w a' b'), Ha, Hb. reflexivity.
  - rewrite (wrap_sub w a b), (wrap_sub w a' b'), Ha, Hb. reflexivity.
  - rewrite (wrap_mul w a b), (wrap_mul w a' b'), Ha, Hb. reflexivity.
Qed.

(* x op= e : computing in the promoted type of x with e first converted to the type of x (what the
   compiler emits) agrees, after the final conversion to the type of x, with C's computation in the
   common type of x and e *)
Lemma compound_value sg w v0 vr f : okw w -> wfc vr -> ring_fun f ->
  conv (sg, w) (c_arith f ((sg, w), v0) vr) =
  conv (sg, w) (promote (sg, w),
                wrap (snd (promote (sg, w)))
                     (f (snd (conv (promote (sg, w)) ((sg, w), v0)))
                        (snd (conv (promote (sg, w)) (conv (sg, w) vr))))).
Proof.
  intros Hw [Hwr _] Hf. destruct (arith_ty_ge sg w (fst vr) Hw Hwr) as [Htw Hwt].
  pose proof (promote_okw sg w Hw) as Hpw. pose proof (promote_ge sg w Hw) as Hpg.
  unfold c_arith. cbn [fst]. destruct (arith_ty (sg, w) (fst vr)) as [st wt]. destruct (promote (sg, w)) as [sp wp]. cbn [fst snd] in *.
  unfold mkval. cbn [snd]. rewrite !conv_trunc by assumption. f_equal.
  apply ring_fun_wrap; [exact Hf| |].
  - rewrite (wrap_vint_conv w (st, wt)) by assumption. rewrite (wrap_snd_conv w (sp, wp)) by assumption. reflexivity.
  - rewrite (wrap_vint_conv w (st, wt)) by assumption. rewrite (wrap_snd_conv w (sp, wp)) by assumption.
    rewrite (wrap_vint_conv w (sg, w)) by (cbn [snd]; lia). reflexivity.
Qed.

Definition bit_fun3 (f : Z -> Z -> Z) : Prop := f = Z.land \/ f = Z.lor \/ f = Z.lxor.

Lemma wrap_bit f w a b : bit_fun3 f -> wrap w (f a b) = f (wrap w a) (wrap w b).
Proof.
  intros Hf. unfold wrap, pow2. apply Z.bits_inj'. intros n Hn.
  assert (H0 : 0 <= Z.of_N w) by lia.
  destruct (Z.ltb_spec n (Z.of_N w)) as [Hlt | Hge].
  - rewrite Z.mod_pow2_bits_low by lia.
    destruct Hf as [-> | [-> | ->]]; rewrite ?Z.land_spec, ?Z.lor_spec, ?Z.lxor_spec, !Z.mod_pow2_bits_low by lia; reflexivity.
  - rewrite Z.mod_pow2_bits_high by lia.
    destruct Hf as [-> | [-> | ->]]; rewrite ?Z.land_spec, ?Z.lor_spec, ?Z.lxor_spec, !Z.mod_pow2_bits_high by lia; reflexivity.
Qed.

(* x &= e;  x |= e;  x ^= e : the bitwise operators commute with truncation, so computing at the type of x with e first
   converted to the type of x (what the compiler emits) agrees with C's computation in the common type *)
Lemma bit_compound_value sg w v0 vr f : okw w -> wfc vr -> bit_fun3 f -> 0 <= v0 < pow2 w ->
  conv (sg, w) (c_bitop f ((sg, w), v0) vr) = ((sg, w), f v0 (snd (conv (sg, w) vr))).
Proof.
  intros Hw [Hwr _] Hf Hv0. destruct (arith_ty_ge sg w (fst vr) Hw Hwr) as [Htw Hwt].
  unfold c_bitop. cbn [fst]. destruct (arith_ty (sg, w) (fst vr)) as [st wt]. cbn [fst snd] in *.
  unfold mkval. cbn [snd]. rewrite conv_trunc by assumption. f_equal.
  rewrite (wrap_bit f w _ _ Hf). f_equal.
  - unfold conv, mkval, vint. cbn [fst snd]. rewrite wrap_wrap_le by assumption. rewrite wrap_interp. apply wrap_small. exact Hv0.
  - unfold conv, mkval. cbn [fst snd]. rewrite wrap_wrap_le by assumption. reflexivity.
Qed.

Lemma bit_fun3_range f w x y : bit_fun3 f -> okw w -> 0 <= x < pow2 w -> 0 <= y < pow2 w -> 0 <= f x y < pow2 w.
Proof. intros [-> | [-> | ->]]; auto using land_range, lor_range, lxor_range. Qed.

Section Fin.
  Variable rw : regwidth.
  Variable R : list (string * reginfo).
  Variable rem : list string.

  (* [eval] is strict in every sub-term and undefined on PRaw: finalisation, which only rewrites PRaw
     leaves, cannot change the value of a term that has one *)
  Lemma fin_pure_eval s : forall p lets v,
    eval rw s lets p = Some v -> eval rw s lets (fin_pure R rem p) = Some v.
  Proof.
    intros p. induction p using pure_ind'; intros lets v0 Hev; cbn [fin_pure]; try exact Hev;
    try (cbn [eval] in Hev |- *;
         repeat (match type of Hev with
                 | match eval ?rw0 ?s0 ?l ?a with _ => _ end = _ =>
                     let Ea := fresh "Ea" in
                     destruct (eval rw0 s0 l a) eqn:Ea; [ | discriminate Hev];
                     match goal with IH : forall lets v, eval _ _ lets a = Some v -> _ |- _ => rewrite (IH _ _ Ea) end
                 | match ?x with _ => _ end = _ => is_var x; destruct x; cbv beta iota in Hev |- *; try discriminate Hev
                 end);
         first [exact Hev | eauto]).
    - (* PApp *)
      match goal with HF0 : Forall _ _ |- _ => rename HF0 into HF end.
      cbn [eval fin_pure] in Hev |- *. revert Hev. generalize (@nil val) as acc.
      induction HF as [|x l Hx HF IHl]; intros acc Hgo; cbn [map].
      + exact Hgo.
      + destruct (eval rw s lets x) eqn:Ex; [|discriminate Hgo]. rewrite (Hx _ _ Ex). apply IHl. exact Hgo.
    - (* PRaw *) discriminate Hev.
  Qed.

  Lemma fin_eff_seqn l : fin_eff R rem (seqn l) = seqn (map (fin_eff R rem) l).
  Proof.
    induction l as [|e t IH]; [reflexivity|].
    destruct t as [|e2 t]; [reflexivity|].
    change (seqn (e :: e2 :: t)) with (ESeq e (seqn (e2 :: t))). cbn [fin_eff]. rewrite IH. reflexivity.
  Qed.
End Fin.

Lemma st_ext_pending s s' : st_ext s s' -> st_pending s = [] -> st_pending s' = [].
Proof. intros [H _] Hp. congruence. Qed.
Lemma st_ext_regs s s' : st_ext s s' -> regs_le (st_regs s) (st_regs s').
Proof. intros H. apply H. Qed.
Lemma st_ext_imms s s' : st_ext s s' -> incl (st_imms s) (st_imms s').
Proof. intros H. apply H. Qed.
Lemma st_ext_nonempty s s' : st_ext s s' -> st_nonempty s = true -> st_nonempty s' = true.
Proof. intros H. apply H. Qed.
Lemma lst_ok_regs_ok IM V st : lst_ok IM V st -> regs_ok (st_regs st).
Proof. intros H. apply H. Qed.

Lemma add_write_property_ok name st : regs_ok (st_regs st) -> name <> "pc" ->
  exists st', add_write_property name st = OK (tt, st') /\
    st_vars st' = st_vars st /\ st_imms st' = st_imms st /\ st_ext st st' /\ regs_ok (st_regs st').
Proof.
  intros Hr Hnpc. unfold add_write_property, bind, get.
  destruct (lookup_reg_info name (st_regs st)) as [ri|] eqn:El.
  - set (acc' := match r_acc ri with
                 | AR => ARW | APR => APRW
                 | AUnknown => if String.eqb (first_char name) "P" then APW else AW
                 | a => a end).
    destruct (entry_ok_acc name ri acc' (Hr _ _ El) Hnpc) as [Hpc Hent].
    { unfold acc'. intros Hu. destruct (r_acc ri); try contradiction; split; (reflexivity || discriminate). }
    assert (Hle : acc_le (r_pc ri) (r_acc ri) acc').
    { unfold acc_le, acc'. rewrite Hpc. destruct (r_acc ri); try (right; split; [reflexivity | intros _; discriminate]). left. auto. }
    eexists. split; [reflexivity|]. cbn [st_vars st_regs st_imms].
    split; [reflexivity|]. split; [reflexivity|].
    split.
    + unfold st_ext; cbn [st_pending st_hcount st_imms st_removed st_nonempty st_regs]. repeat split; auto using incl_refl, N.le_refl.
      intros n r H. rewrite lookup_reg_info_update, H.
      destruct (String.eqb_spec name n) as [<-|_]; [|exists r; auto using acc_le_refl].
      rewrite El in H. injection H as <-. eexists. split; [reflexivity|]. cbn [r_op r_pc r_new r_acc]. fold acc'. auto.
    + intros n r. rewrite lookup_reg_info_update. destruct (lookup_reg_info n (st_regs st)) as [r0|] eqn:Eln; [|discriminate].
      destruct (String.eqb_spec name n) as [<-|_].
      * intros H; injection H as <-. exact Hent.
      * intros H; injection H as <-. exact (Hr _ _ Eln).
  - exists st. split; [reflexivity|]. split; [reflexivity|]. split; [reflexivity|]. split; [apply st_ext_refl | exact Hr].
Qed.

(* the destination handle of an assignment, finalised: the handle of the entry under the operand's name *)
Lemma fin_op_at R rem regs n ri : lookup_reg_info n regs = Some ri -> regs_le regs R -> norem rem -> r_pc ri = false ->
  fin_op R rem (RParam ("$reg:" +++ n)) = r_op ri.
Proof.
  intros Hl Hle Hrem Hp. unfold fin_op. rewrite reg_name_of_reg. unfold reg_handle.
  destruct (Hle _ _ Hl) as (ri' & L' & O' & P' & _). rewrite L', Hrem, P', Hp, O'. reflexivity.
Qed.
Lemma alias_op_not_pc name new : In name alias_names -> regop_eqb pc_op (alias_op name new) = false.
Proof.
  intros H. cbn [alias_names In] in H. repeat (destruct H as [<- | H]; [destruct new; reflexivity|]). contradiction.
Qed.
Lemma expl_op_not_pc name new : In name expl_names -> regop_eqb pc_op (expl_op name new) = false.
Proof.
  intros H. destruct (expl_facts name new H) as [_ [Hx _]]. destruct (expl_op name new); try discriminate Hx. reflexivity.
Qed.

(* the names of IL locals that are not declared variables *)
Definition reserved (IM : string -> bool) (x : string) : Prop :=
  x = "jump_flag" \/ x = "jump_target" \/ IM x = true \/ imm_cname x = true \/ is_htmp x = true.
(* neither the two locals of JUMP nor the compiler's temporaries h_tmp<n> are immediate letters *)
Definition im_ok (IM : string -> bool) : Prop :=
  IM "jump_flag" = false /\ IM "jump_target" = false /\ (forall x, is_htmp x = true -> IM x = false).
(* decided for an explicit list of letters *)
Definition im_ok_l (ls : list string) : bool :=
  forallb (fun l => negb (String.eqb l "jump_flag") && negb (String.eqb l "jump_target") && negb (is_htmp l)) ls.
Lemma im_ok_l_iff ls : im_ok_l ls = true <-> im_ok (fun l => existsb (String.eqb l) ls).
Proof.
  unfold im_ok_l, im_ok. rewrite forallb_forall. split.
  - intros H.
    assert (Hn : forall x, existsb (String.eqb x) ls = true ->
                   String.eqb x "jump_flag" = false /\ String.eqb x "jump_target" = false /\ is_htmp x = false).
    { intros x Hx. apply existsb_exists in Hx. destruct Hx as [y [Hy Exy]]. apply String.eqb_eq in Exy. subst y.
      specialize (H x Hy). apply andb_prop in H. destruct H as [H H3]. apply andb_prop in H. destruct H as [H1 H2].
      rewrite negb_true_iff in H1, H2, H3. auto. }
    split; [|split].
    + destruct (existsb (String.eqb "jump_flag") ls) eqn:Ee; [|reflexivity]. destruct (Hn _ Ee) as [H1 _]. discriminate H1.
    + destruct (existsb (String.eqb "jump_target") ls) eqn:Ee; [|reflexivity]. destruct (Hn _ Ee) as [_ [H1 _]]. discriminate H1.
    + intros x Hx. destruct (existsb (String.eqb x) ls) eqn:Ee; [|reflexivity]. destruct (Hn _ Ee) as [_ [_ H1]]. congruence.
  - intros [H1 [H2 H3]] x Hx.
    assert (Ex : existsb (String.eqb x) ls = true) by (apply existsb_exists; exists x; split; [exact Hx | apply String.eqb_refl]).
    destruct (String.eqb_spec x "jump_flag") as [->|_]; [congruence|].
    destruct (String.eqb_spec x "jump_target") as [->|_]; [congruence|].
    destruct (is_htmp x) eqn:Eh; [rewrite (H3 x Eh) in Ex; discriminate Ex | reflexivity].
Qed.
Lemma im_ok_letters : im_ok imm_letter.
Proof. exact (proj1 (im_ok_l_iff ["r"; "R"; "s"; "S"; "u"; "U"; "m"; "n"]) eq_refl). Qed.
Definition jrel (cs : cstate) (ms : mstate) : Prop :=
  match cs_jump cs with
  | None => lookup "jump_flag" (locals ms) = None /\ lookup "jump_target" (locals ms) = None
  | Some t => lookup "jump_flag" (locals ms) = Some (VB true) /\ lookup "jump_target" (locals ms) = Some (VBv 32 t) /\
              0 <= t < pow2 32
  end.
(* D = the DECLARED locals (the model's variable table), V = those of them that have been given a value
   (ExprCorrect.vext V D): `T x;` declares without initialising, the first assignment initialises.
   [drel]: C knows a declared local without value with its declared type and no value; every other name that is not
   reserved is unknown to C (the implicitly declared EA, i, j, k get their documented type when they are first assigned) *)
Definition drel (IM : string -> bool) (D V : list (string * option vtype)) (cs : cstate) : Prop :=
  forall x, lookup x V = None -> ~ reserved IM x ->
    match lookup x D with
    | Some (Some t) => lookup x (cs_vars cs) = Some ((vt_sg t, vt_w t), None)
    | _ => lookup x (cs_vars cs) = None
    end.
(* the temporaries h_tmp<n> of the loops' i++ are IL locals that C does not have: each is unset or holds a 32 bit value *)
Definition htmp_ok (ms : mstate) : Prop :=
  forall x, is_htmp x = true -> lookup x (locals ms) = None \/ exists v, lookup x (locals ms) = Some (VBv 32 v).
Lemma htmp_ok_set_local ms x v : is_htmp x = false -> htmp_ok ms -> htmp_ok (set_local ms x v).
Proof.
  intros Hx H y Hy. cbn [locals set_local lookup]. destruct (String.eqb_spec y x) as [->|_]; [congruence | exact (H y Hy)].
Qed.
Lemma htmp_ok_set_htmp ms x v : htmp_ok ms -> htmp_ok (set_local ms x (VBv 32 v)).
Proof. intros H y Hy. cbn [locals set_local lookup]. destruct (String.eqb_spec y x) as [->|_]; [right; eauto | exact (H y Hy)]. Qed.
(* [rel] of ExprCorrect (every declared integer local holds the same in-range value on both sides; the
   registers written so far are the same list; same operand environment), and: the IL state has no local
   the model does not know as declared, except the two locals JUMP sets, which mirror the C jump state,
   and the locals of the immediates, which hold the encoded immediate once the prologue has set them;
   none of these is the name of a declared variable; the bytes stored so far are the same list on both
   sides; the C routine has not returned *)
Definition srel (IM : string -> bool) (E : cenv) (D V : list (string * option vtype)) (cs : cstate) (ms : mstate) : Prop :=
  rel IM E V cs ms /\ (forall x, lookup x V = None -> ~ reserved IM x -> lookup x (locals ms) = None) /\
  cs_mem cs = mem ms /\ cs_ret cs = None /\
  (forall x, reserved IM x -> lookup x D = None) /\ jrel cs ms /\
  (forall l, IM l = true ->
     lookup l (locals ms) = None \/ lookup l (locals ms) = Some (VBv 32 (cimm E cs l))) /\
  drel IM D V cs /\ vext V D /\ htmp_ok ms.

Lemma srel_ret IM E D V cs ms : srel IM E D V cs ms -> cs_ret cs = None.
Proof. intros H. apply H. Qed.
Lemma srel_vext IM E D V cs ms : srel IM E D V cs ms -> vext V D.
Proof. intros H. apply H. Qed.

Lemma srel_nr IM E D V cs ms x t : srel IM E D V cs ms -> lookup x V = Some t -> ~ reserved IM x.
Proof.
  intros [_ [_ [_ [_ [H5 [_ [_ [_ [H9 _]]]]]]]]] Hx Hr. pose proof (H5 x Hr) as Q. rewrite (H9 _ _ Hx) in Q. discriminate Q.
Qed.

Lemma not_reserved_imm IM x : ~ reserved IM x -> IM x = false /\ imm_cname x = false.
Proof.
  intros H. split.
  - destruct (IM x) eqn:Ei; [|reflexivity]. exfalso. apply H. right. right. left. exact Ei.
  - destruct (imm_cname x) eqn:Ei; [|reflexivity]. exfalso. apply H. right. right. right. left. exact Ei.
Qed.
Lemma not_reserved_htmp IM x : ~ reserved IM x -> is_htmp x = false.
Proof. intros H. destruct (is_htmp x) eqn:Ei; [|reflexivity]. exfalso. apply H. right. right. right. right. exact Ei. Qed.

Lemma srel_set_reg IM E D V cs ms r z : srel IM E D V cs ms -> regop_eqb pc_op r = false ->
  srel IM E D V (set_regw cs r z) (set_reg ms r z).
Proof.
  intros [[R1 [R2 [R3 [R4 [R5 [R6 [R7 [R8 [R9 R10]]]]]]]]] [H2 [H3 [H4 [H5 [H6 [H7 [H8 [H9 H10]]]]]]]]] Hpc. split; [|split; [exact H2|]].
  - unfold rel. cbn [cs_vars cs_regw cs_mem set_regw locals rnew rold rnew0 imms mem mem0 pktaddr set_reg lookup_reg]. rewrite R2, Hpc, <- R2.
    auto 12.
  - cbn [cs_mem set_regw mem set_reg cs_ret]. auto 10.
Qed.

Lemma ty_int_inj sg w sg' w' : ty_int sg w = ty_int sg' w' -> sg = sg' /\ w = w'.
Proof. unfold ty_int. intros H. injection H. auto. Qed.

(* a local that is not one of the jump locals is set on both sides *)
Lemma jrel_set IM cs ms x cv v : ~ reserved IM x -> jrel cs ms -> jrel (CSem.set_var cs x cv) (set_local ms x v).
Proof.
  intros Hx. unfold jrel. cbn [cs_jump CSem.set_var locals set_local lookup].
  destruct (String.eqb_spec "jump_flag" x) as [<-|_]; [exfalso; apply Hx; left; reflexivity|].
  destruct (String.eqb_spec "jump_target" x) as [<-|_]; [exfalso; apply Hx; right; left; reflexivity|].
  auto.
Qed.

Lemma imm_cname_neq x l : imm_cname x = false -> String.eqb ("imm:" +++ l) x = false.
Proof. intros H. destruct (String.eqb_spec ("imm:" +++ l) x) as [<-|_]; [|reflexivity]. rewrite imm_cname_imm in H. discriminate H. Qed.
Lemma imm_letter_neq (IM : string -> bool) x l : IM x = false -> IM l = true -> String.eqb l x = false.
Proof. intros Hx Hl. destruct (String.eqb_spec l x) as [->|_]; [congruence | reflexivity]. Qed.

Lemma vext_app V D x t : vext V D -> lookup x D = None -> vext (V ++ [(x, t)]) (D ++ [(x, t)]).
Proof.
  intros Hv Hx y u Hy. rewrite lookup_app in *. destruct (lookup y V) as [r|] eqn:Ely.
  - injection Hy as <-. rewrite (Hv _ _ Ely). reflexivity.
  - cbn [lookup] in *. destruct (String.eqb_spec y x) as [->|_]; [|discriminate]. rewrite Hx. exact Hy.
Qed.
Lemma vext_app_r V D x t : vext V D -> vext V (D ++ [(x, t)]).
Proof. intros Hv y u Hy. rewrite lookup_app, (Hv _ _ Hy). reflexivity. Qed.
Lemma vext_app_l V D x t : vext V D -> lookup x D = Some t -> vext (V ++ [(x, t)]) D.
Proof.
  intros Hv Hx y u Hy. rewrite lookup_app in Hy. destruct (lookup y V) as [r|] eqn:Ely.
  - injection Hy as <-. exact (Hv _ _ Ely).
  - cbn [lookup] in Hy. destruct (String.eqb_spec y x) as [->|_]; [|discriminate]. injection Hy as <-. exact Hx.
Qed.
Lemma vext_none V D x : vext V D -> lookup x D = None -> lookup x V = None.
Proof. intros Hv Hx. destruct (lookup x V) as [t|] eqn:E; [|reflexivity]. rewrite (Hv _ _ E) in Hx. discriminate Hx. Qed.

(* a C local that is not the carrier of an immediate does not change the value of any immediate *)
Lemma cimm_set_var E cs x cv l : imm_cname x = false -> cimm E (CSem.set_var cs x cv) l = cimm E cs l.
Proof. intros Hx. unfold cimm. cbn [CSem.set_var cs_vars lookup]. rewrite (imm_cname_neq x l Hx). reflexivity. Qed.
Lemma cimm_vars E cs cs' l : cs_vars cs' = cs_vars cs -> cimm E cs' l = cimm E cs l.
Proof. intros H. unfold cimm. rewrite H. reflexivity. Qed.

(* the part of [rel] about the declared locals with a value, when the local x is given the value z *)
Lemma rel_vars_set IM E V cs ms x sg w z t V' : rel IM E V cs ms -> imm_cname x = false ->
  (forall y sg' w', lookup y V' = Some (Some (ty_int sg' w')) -> okw w' ->
     (y = x /\ sg' = sg /\ w' = w) \/ (y <> x /\ lookup y V = Some (Some (ty_int sg' w')))) ->
  0 <= z < pow2 w -> t = (sg, w) ->
  rel IM E V' (CSem.set_var cs x (t, z)) (set_local ms x (VBv w z)).
Proof.
  intros [R1 [R2 [R3 [R4 [R5 [R6 R7]]]]]] Hic HV Hz ->. unfold rel.
  cbn [cs_vars cs_regw cs_mem CSem.set_var locals rnew rold rnew0 imms mem mem0 set_local fst snd].
  split; [|split; [exact R2|split; [exact R3|split; [exact R4|split; [exact R5|split; [|exact R7]]]]]].
  - intros y sg' w' Hy Hw'. cbn [lookup]. destruct (HV y sg' w' Hy Hw') as [[-> [-> ->]] | [Hne Hy']].
    + rewrite String.eqb_refl. exists z. auto.
    + destruct (String.eqb_spec y x) as [->|_]; [contradiction|]. exact (R1 y sg' w' Hy' Hw').
  - intros l Hl. unfold cimm. cbn [CSem.set_var cs_vars lookup fst snd]. rewrite (imm_cname_neq x l Hic). exact (R6 l Hl).
Qed.

Lemma lookup_snoc_new {A} x (v : A) l : lookup x l = None -> lookup x (l ++ [(x, v)]) = Some v.
Proof. intros H. rewrite lookup_app, H. cbn [lookup]. rewrite String.eqb_refl. reflexivity. Qed.

(* a local x that is not reserved is set on both sides; afterwards (D', V') it is declared and has a value, the other names
   are as they were *)
Lemma srel_set_local IM E D V D' V' cs ms x sg w z : srel IM E D V cs ms -> ~ reserved IM x -> 0 <= z < pow2 w ->
  lookup x D' = Some (Some (ty_int sg w)) -> lookup x V' = Some (Some (ty_int sg w)) ->
  (forall y, y <> x -> lookup y D' = lookup y D /\ lookup y V' = lookup y V) ->
  srel IM E D' V' (CSem.set_var cs x ((sg, w), z)) (set_local ms x (VBv w z)).
Proof.
  intros (R & H2 & H3 & H4 & H5 & H6 & H7 & H8 & H9 & H10) Hnr Hz HxD HxV Hoth.
  destruct (not_reserved_imm IM x Hnr) as [Hil Hic].
  assert (Hne : forall y, lookup y V' = None -> y <> x) by (intros y Hy ->; congruence).
  split; [|split].
  - apply (rel_vars_set IM E V cs ms x sg w z (sg, w) V' R Hic); [|exact Hz | reflexivity].
    intros y sg' w' Hy Hw'. destruct (String.eqb_spec y x) as [->|Hyx].
    + left. assert (Hy' : ty_int sg w = ty_int sg' w') by congruence. apply ty_int_inj in Hy'. destruct Hy' as [<- <-]. auto.
    + right. split; [exact Hyx | rewrite <- (proj2 (Hoth y Hyx)); exact Hy].
  - intros y Hy Hyr. cbn [locals set_local lookup]. pose proof (Hne y Hy) as Hyx.
    destruct (String.eqb_spec y x) as [->|_]; [contradiction|]. apply H2; [rewrite <- (proj2 (Hoth y Hyx)); exact Hy | exact Hyr].
  - cbn [CSem.set_var cs_mem mem set_local cs_ret]. split; [exact H3|]. split; [exact H4|].
    split. { intros y Hyr. rewrite (proj1 (Hoth y (fun Eq => Hnr (eq_ind y _ Hyr x Eq)))). exact (H5 y Hyr). }
    split; [apply (jrel_set IM); assumption|].
    split. { intros l Hl. cbn [locals set_local lookup imms]. rewrite (imm_letter_neq IM x l Hil Hl), (cimm_set_var E cs x _ l Hic). exact (H7 l Hl). }
    split. { intros y Hy Hyr. pose proof (Hne y Hy) as Hyx. destruct (Hoth y Hyx) as [ED EV]. rewrite ED.
             unfold CSem.set_var. cbn [cs_vars lookup]. destruct (String.eqb_spec y x) as [->|_]; [contradiction|].
             apply H8; [rewrite <- EV; exact Hy | exact Hyr]. }
    split. { intros y t Hy. destruct (String.eqb_spec y x) as [->|Hyx]; [congruence|]. destruct (Hoth y Hyx) as [-> EV].
             apply H9. rewrite <- EV. exact Hy. }
    apply htmp_ok_set_local; [exact (not_reserved_htmp IM x Hnr) | exact H10].
Qed.

(* a declared local that has a value is assigned *)
Lemma srel_set_var IM E D V cs ms x sg w z : srel IM E D V cs ms -> lookup x V = Some (Some (ty_int sg w)) -> 0 <= z < pow2 w ->
  srel IM E D V (CSem.set_var cs x ((sg, w), z)) (set_local ms x (VBv w z)).
Proof.
  intros Hrel Hx Hz.
  apply (srel_set_local IM E D V D V cs ms x sg w z Hrel (srel_nr _ _ _ _ _ _ _ _ Hrel Hx) Hz (srel_vext _ _ _ _ _ _ Hrel _ _ Hx) Hx). auto.
Qed.

(* a fresh local is declared with a value:  T x = e;   EA = e; *)
Lemma srel_decl IM E D V cs ms x sg w z : srel IM E D V cs ms -> lookup x D = None -> ~ reserved IM x -> 0 <= z < pow2 w ->
  srel IM E (D ++ [(x, Some (ty_int sg w))]) (V ++ [(x, Some (ty_int sg w))])
       (CSem.set_var cs x ((sg, w), z)) (set_local ms x (VBv w z)).
Proof.
  intros Hrel HxD Hnr Hz. pose proof (vext_none V D x (srel_vext _ _ _ _ _ _ Hrel) HxD) as HxV.
  apply (srel_set_local IM E D V _ _ cs ms x sg w z Hrel Hnr Hz); [apply lookup_snoc_new; exact HxD | apply lookup_snoc_new; exact HxV |].
  intros y Hy. split; apply lookup_snoc_other, String.eqb_neq; exact Hy.
Qed.

(* a declared local without value gets its first value:  x = e; *)
Lemma srel_first IM E D V cs ms x sg w z : srel IM E D V cs ms ->
  lookup x D = Some (Some (ty_int sg w)) -> lookup x V = None -> 0 <= z < pow2 w ->
  srel IM E D (V ++ [(x, Some (ty_int sg w))]) (CSem.set_var cs x ((sg, w), z)) (set_local ms x (VBv w z)).
Proof.
  intros Hrel HxD HxV Hz.
  assert (Hnr : ~ reserved IM x) by (intros Hr; rewrite (proj1 (proj2 (proj2 (proj2 (proj2 Hrel)))) x Hr) in HxD; discriminate HxD).
  apply (srel_set_local IM E D V D _ cs ms x sg w z Hrel Hnr Hz HxD); [apply lookup_snoc_new; exact HxV|].
  intros y Hy. split; [reflexivity | apply lookup_snoc_other, String.eqb_neq; exact Hy].
Qed.

(* a fresh local is declared without a value:  T x; *)
Lemma srel_decl0 IM E D V cs ms x sg w : srel IM E D V cs ms -> lookup x D = None -> ~ reserved IM x ->
  srel IM E (D ++ [(x, Some (ty_int sg w))]) V
       (mkcs ((x, ((sg, w), None)) :: cs_vars cs) (cs_regw cs) (cs_mem cs) (cs_jump cs) (cs_ret cs) (cs_events cs)) ms.
Proof.
  intros [[R1 [R2 [R3 [R4 [R5 [R6 R7]]]]]] [H2 [H3 [H4 [H5 [H6 [H7 [H8 [H9 H10]]]]]]]]] HxD Hnr.
  pose proof (vext_none V D x H9 HxD) as Hx.
  destruct (not_reserved_imm IM x Hnr) as [Hil Hic].
  split; [|split; [exact H2|]].
  - unfold rel. cbn [cs_vars cs_regw cs_mem lookup]. split; [|split; [exact R2|split; [exact R3|split; [exact R4|split; [exact R5|split; [|exact R7]]]]]].
    + intros y sg' w' Hy Hw'. destruct (String.eqb_spec y x) as [->|_]; [congruence|]. exact (R1 y sg' w' Hy Hw').
    + intros l Hl. unfold cimm. cbn [cs_vars lookup]. rewrite (imm_cname_neq x l Hic). exact (R6 l Hl).
  - cbn [cs_mem cs_ret]. repeat (split; [assumption|]).
    split; [|split; [exact H6|split; [|split; [|split; [apply vext_app_r; exact H9 | exact H10]]]]].
    2:{ intros l Hl. unfold cimm. cbn [cs_vars lookup]. rewrite (imm_cname_neq x l Hic). exact (H7 l Hl). }
    + intros y Hyr. rewrite lookup_app, (H5 y Hyr). cbn [lookup].
      destruct (String.eqb_spec y x) as [->|_]; [contradiction | reflexivity].
    + intros y Hy Hyr. cbn [cs_vars lookup]. rewrite lookup_app.
      destruct (String.eqb_spec y x) as [->|Hne].
      * rewrite HxD. cbn [lookup]. rewrite String.eqb_refl. reflexivity.
      * specialize (H8 y Hy Hyr). destruct (lookup y D) as [[t|]|]; try exact H8.
        cbn [lookup]. destruct (String.eqb_spec y x) as [->|_]; [contradiction | exact H8].
Qed.

(* a reserved local other than the two of JUMP is set on the IL side alone: the local of an immediate gets the value the
   immediate has in C, a temporary h_tmp<n> of the loops' i++ any 32 bit value *)
Lemma srel_il_local IM E D V cs ms x v : srel IM E D V cs ms -> reserved IM x -> x <> "jump_flag" -> x <> "jump_target" ->
  (IM x = true -> v = VBv 32 (cimm E cs x)) -> (is_htmp x = true -> exists z, v = VBv 32 z) ->
  srel IM E D V cs (set_local ms x v).
Proof.
  intros ([R1 R2] & H2 & H3 & H4 & H5 & H6 & H7 & H8 & H9 & H10) Hr Hjf Hjt Him Hht.
  assert (HxV : lookup x V = None) by exact (vext_none V D x H9 (H5 x Hr)).
  split; [|split; [|split; [exact H3|split; [exact H4|split; [exact H5|split; [|split; [|split; [exact H8|split; [exact H9|]]]]]]]]].
  - split; [|exact R2]. intros y sg w Hy Hw. cbn [locals set_local lookup].
    destruct (String.eqb_spec y x) as [->|_]; [congruence | exact (R1 y sg w Hy Hw)].
  - intros y Hy Hyr. cbn [locals set_local lookup]. destruct (String.eqb_spec y x) as [->|_]; [contradiction | exact (H2 y Hy Hyr)].
  - unfold jrel in *. cbn [locals set_local lookup].
    destruct (String.eqb_spec "jump_flag" x) as [<-|_]; [contradiction|].
    destruct (String.eqb_spec "jump_target" x) as [<-|_]; [contradiction|]. exact H6.
  - intros l Hl. cbn [locals set_local lookup].
    destruct (String.eqb_spec l x) as [->|_]; [right; f_equal; exact (Him Hl) | exact (H7 l Hl)].
  - intros y Hy. cbn [locals set_local lookup].
    destruct (String.eqb_spec y x) as [->|_]; [right; destruct (Hht Hy) as [z ->]; eauto | exact (H10 y Hy)].
Qed.

Lemma srel_set_htmp IM E D V cs ms x v : im_ok IM -> srel IM E D V cs ms -> is_htmp x = true ->
  srel IM E D V cs (set_local ms x (VBv 32 v)).
Proof.
  intros (_ & _ & HI3) Hrel Hx.
  apply srel_il_local; [exact Hrel | right; right; right; right; exact Hx | intros ->; discriminate Hx | intros ->; discriminate Hx | | eauto].
  intros Hi. rewrite (HI3 x Hx) in Hi. discriminate Hi.
Qed.

Lemma imm_name_eqb l' l : String.eqb ("imm:" +++ l') ("imm:" +++ l) = String.eqb l' l.
Proof. reflexivity. Qed.
Lemma cimm_asg E cs l sg z l' :
  cimm E (CSem.set_var cs ("imm:" +++ l) ((sg, 32%N), z)) l' = if String.eqb l' l then z else cimm E cs l'.
Proof. unfold cimm. cbn [CSem.set_var cs_vars lookup fst snd]. rewrite imm_name_eqb. destruct (String.eqb l' l); reflexivity. Qed.

(* an immediate is assigned:  riV = e;  (CSem keeps the value in the C local "imm:r", the IL in the local r of the prologue) *)
Lemma srel_asg_imm IM E D V cs ms l sg z : im_ok IM -> srel IM E D V cs ms -> IM l = true -> 0 <= z < pow2 32 ->
  srel IM E D V (CSem.set_var cs ("imm:" +++ l) ((sg, 32%N), z)) (set_local ms l (VBv 32 z)).
Proof.
  intros [HI1 [HI2 _]] Hrel Hl Hz. pose proof Hrel as [[R1 [R2 [R3 [R4 [R5 [R6 R7]]]]]] [H2 [H3 [H4 [H5 [H6 [H7 [H8 [H9 H10]]]]]]]]].
  assert (Hr : reserved IM l) by (right; right; left; exact Hl).
  assert (Hrc : reserved IM ("imm:" +++ l)) by (right; right; right; left; apply imm_cname_imm).
  split; [|split].
  - unfold rel. cbn [cs_vars cs_regw cs_mem CSem.set_var locals rnew rold rnew0 imms mem mem0 pktaddr set_local fst snd].
    split; [|split; [exact R2|split; [exact R3|split; [exact R4|split; [exact R5|split; [|exact R7]]]]]].
    + intros y sg' w' Hy Hw'. pose proof (srel_nr _ _ _ _ _ _ _ _ Hrel Hy) as Hnr. destruct (not_reserved_imm IM y Hnr) as [Hyi Hyc].
      cbn [lookup]. rewrite (String.eqb_sym y), (imm_cname_neq y l Hyc), (String.eqb_sym y l), (imm_letter_neq IM y l Hyi Hl).
      exact (R1 y sg' w' Hy Hw').
    + intros l' Hl'. rewrite (cimm_asg E cs l sg z l'). destruct (String.eqb l' l); [exact Hz | exact (R6 l' Hl')].
  - intros y Hy Hyr. cbn [locals set_local lookup].
    destruct (String.eqb_spec y l) as [->|_]; [contradiction | exact (H2 y Hy Hyr)].
  - cbn [CSem.set_var cs_mem mem set_local cs_ret]. repeat (split; [assumption|]). split.
    + unfold jrel in *. cbn [cs_jump locals set_local lookup].
      destruct (String.eqb_spec "jump_flag" l) as [<-|_]; [congruence|].
      destruct (String.eqb_spec "jump_target" l) as [<-|_]; [congruence|]. exact H6.
    + split; [|split; [|split; [exact H9 | apply htmp_ok_set_htmp; exact H10]]].
      * intros l' Hl'. cbn [locals set_local lookup]. rewrite (cimm_asg E cs l sg z l').
        destruct (String.eqb l' l); [right; reflexivity | exact (H7 l' Hl')].
      * intros y Hy Hyr. specialize (H8 y Hy Hyr). unfold CSem.set_var. cbn [cs_vars lookup].
        destruct (String.eqb_spec y ("imm:" +++ l)) as [->|_]; [contradiction | exact H8].
Qed.

Lemma imms_done_asg_imm IM E J cs ms l sg z : imms_done IM E J cs ms ->
  imms_done IM E J (CSem.set_var cs ("imm:" +++ l) ((sg, 32%N), z)) (set_local ms l (VBv 32 z)).
Proof.
  intros H l' Hl' Hin. cbn [locals set_local lookup]. rewrite (cimm_asg E cs l sg z l').
  destruct (String.eqb l' l); [reflexivity | exact (H l' Hl' Hin)].
Qed.

(* the prologue entries that have been executed stay executed *)
Lemma imms_done_gen IM E J cs cs' ms ms' :
  (forall l, IM l = true -> cimm E cs' l = cimm E cs l) ->
  (forall l, IM l = true -> lookup l (locals ms') = lookup l (locals ms)) ->
  imms_done IM E J cs ms -> imms_done IM E J cs' ms'.
Proof. intros Hc Hm H l Hl Hin. rewrite (Hc l Hl), (Hm l Hl). exact (H l Hl Hin). Qed.

Lemma imms_done_set_local IM E J cs ms x cv v : ~ reserved IM x -> imms_done IM E J cs ms ->
  imms_done IM E J (CSem.set_var cs x cv) (set_local ms x v).
Proof.
  intros Hx. destruct (not_reserved_imm IM x Hx) as [Hi Hc]. apply imms_done_gen.
  - intros l _. apply cimm_set_var. exact Hc.
  - intros l Hl. cbn [locals set_local lookup]. rewrite (imm_letter_neq IM x l Hi Hl). reflexivity.
Qed.
(* a local of the IL alone (jump_flag / jump_target) *)
Lemma imms_done_il_local IM E J cs cs' ms x v : IM x = false -> cs_vars cs' = cs_vars cs -> imms_done IM E J cs ms ->
  imms_done IM E J cs' (set_local ms x v).
Proof.
  intros Hi Hv. apply imms_done_gen.
  - intros l _. apply cimm_vars. exact Hv.
  - intros l Hl. cbn [locals set_local lookup]. rewrite (imm_letter_neq IM x l Hi Hl). reflexivity.
Qed.
Lemma imms_done_set_reg IM E J cs ms r z : imms_done IM E J cs ms -> imms_done IM E J (set_regw cs r z) (set_reg ms r z).
Proof. apply imms_done_gen; intros; reflexivity. Qed.
Lemma imms_done_set_mem IM E J cs ms a v n m : imms_done IM E J cs ms -> imms_done IM E J (c_store cs a v n) (set_mem ms m).
Proof. apply imms_done_gen; intros; reflexivity. Qed.

(* the declaration specifiers of the fragment: the cast types of ExprCorrect (intN_t / uintN_t / int /
   unsigned / unsigned int) and QEMU's sizeNs_t / sizeNu_t *)
Definition decl_ty (ts : tyspec) (sg : bool) (w : N) : Prop :=
  cast_ty ts sg w \/ (exists b, ts = [TS_sizeN b sg] /\ w = (b * 8)%N /\ okw w).

(* the names the dialect declares implicitly as 32-bit unsigned locals (Lower.lower_operand, CSem.operand_lval) *)
Definition implicit_name (x : string) : Prop := x = "EA" \/ x = "i" \/ x = "j" \/ x = "k".

(* a plain name that is neither a declared local, an immediate letter nor an implicitly declared local: the compiler
   passes it on as text (pkt, slot, ...) *)
Definition raw_name (IM : string -> bool) (D : list (string * option vtype)) (x : string) : Prop :=
  lookup x D = None /\ IM x = false /\ ~ implicit_name x /\ is_htmp x = false.
(* an argument of the call statement STORE_SLOT_CANCELLED: such a name, or an expression of the fragment *)
Inductive carg (rw : regwidth) (IM : string -> bool) (D V : list (string * option vtype)) : cexpr -> Prop :=
| ca_raw x : raw_name IM D x -> carg rw IM D V (EOp (OIdent x))
| ca_expr e : pfrag rw IM V e -> carg rw IM D V e.
(* (the theorems assume that neither sub-routine table knows this name: ExprCorrect.subs_ext / csub_ext) *)
Definition ssc_name : string := "STORE_SLOT_CANCELLED".
Lemma ssc_ext : In ssc_name ext_calls.
Proof. left. reflexivity. Qed.

(* statements without a loop inside *)
Fixpoint noloop (s : cstmt) : bool :=
  match s with
  | SFor _ _ _ _ | SWhile _ _ | SDo _ _ => false
  | SIf _ t f => noloop t && match f with Some f => noloop f | None => true end
  | SBlock l => (fix go (l : cstmts) : bool := match l with SNil => true | SCons s t => noloop s && go t end) l
  | _ => true
  end.
Fixpoint noloops (l : cstmts) : bool := match l with SNil => true | SCons s t => noloop s && noloops t end.
Lemma noloop_block l : noloop (SBlock l) = noloops l.
Proof. induction l as [|s t IH]; [reflexivity|]. cbn [noloops]. rewrite <- IH. reflexivity. Qed.

(* [sfrag rw IM D V s D' V']: statement s of the fragment, lowered with DECLARED locals D of which V have a value
   (expressions may read the locals of V only), leaves D' / V'.
   rw is the register-width environment of the IL semantics: a destination register operand must
   have the width the machine gives its operand handle. *)
Inductive sfrag (rw : regwidth) (IM : string -> bool) :
  list (string * option vtype) -> list (string * option vtype) -> cstmt ->
  list (string * option vtype) -> list (string * option vtype) -> Prop :=
| sf_asg_reg D V cls letters acc e :                  (* RdV = e;  RxxV = e;  PdV = e; ... *)
    dest_cls cls -> access_of_letters letters = Some acc ->
    rw (RIsa cls (substring 0 1 letters) false) = dest_w cls acc ->
    pfrag rw IM V e -> sfrag rw IM D V (SExpr (EAssign AAssign (EOp (OReg cls letters)) e)) D V
| sf_asg_alias D V name new e :                       (* HEX_REG_ALIAS_LC0 = e;  HEX_REG_ALIAS_USR = e; ... *)
    In name alias_names -> rw (alias_op name new) = alias_w name ->
    pfrag rw IM V e -> sfrag rw IM D V (SExpr (EAssign AAssign (EOp (OAlias name new)) e)) D V
| sf_asg_expl D V name new e :                        (* P0 = e;  (fWRITE_P0(e)) ... an explicitly named register *)
    In name expl_names -> rw (expl_op name new) = expl_w name ->
    pfrag rw IM V e -> sfrag rw IM D V (SExpr (EAssign AAssign (EOp (OExplicit name new)) e)) D V
| sf_asg_imm D V l e :                                (* riV = e;  an immediate is assigned (fPCALIGN: riV = riV & ~3) *)
    IM l = true -> pfrag rw IM V e -> sfrag rw IM D V (SExpr (EAssign AAssign (EOp (OImm l)) e)) D V
| sf_asg_var D V x sg w e :                           (* x = e;  for a declared local that has a value *)
    lookup x V = Some (Some (ty_int sg w)) -> okw w ->
    pfrag rw IM V e -> sfrag rw IM D V (SExpr (EAssign AAssign (EOp (OIdent x)) e)) D V
| sf_asg_first D V x sg w e :                         (* x = e;  the FIRST assignment of a local declared without initialiser *)
    lookup x D = Some (Some (ty_int sg w)) -> lookup x V = None -> okw w ->
    pfrag rw IM V e -> sfrag rw IM D V (SExpr (EAssign AAssign (EOp (OIdent x)) e)) D (V ++ [(x, Some (ty_int sg w))])
| sf_asg_implicit D V x e :                           (* EA = e;  the FIRST assignment of EA (i, j, k): declares it, uint32_t *)
    implicit_name x -> lookup x D = None -> lookup x V = None -> ~ reserved IM x ->
    pfrag rw IM V e ->
    sfrag rw IM D V (SExpr (EAssign AAssign (EOp (OIdent x)) e)) (D ++ [(x, Some (ty_int false 32))]) (V ++ [(x, Some (ty_int false 32))])
| sf_casg_var D V a x sg w e :                        (* x += e;  x -= e;  x *= e;  for a declared local that has a value *)
    (a = AAdd \/ a = ASub \/ a = AMul) ->
    lookup x V = Some (Some (ty_int sg w)) -> okw w ->
    pfrag rw IM V e -> sfrag rw IM D V (SExpr (EAssign a (EOp (OIdent x)) e)) D V
| sf_basg_var D V a x sg w e :                        (* x &= e;  x |= e;  x ^= e;  for a declared local that has a value *)
    (a = AAnd \/ a = AOr \/ a = AXor) ->
    lookup x V = Some (Some (ty_int sg w)) -> okw w ->
    pfrag rw IM V e -> sfrag rw IM D V (SExpr (EAssign a (EOp (OIdent x)) e)) D V
| sf_basg_reg D V a cls letters acc e :               (* RxV &= e;  RxV |= e;  RxV ^= e; *)
    (a = AAnd \/ a = AOr \/ a = AXor) ->
    dest_cls cls -> access_of_letters letters = Some acc ->
    rw (RIsa cls (substring 0 1 letters) false) = dest_w cls acc ->
    pfrag rw IM V e -> sfrag rw IM D V (SExpr (EAssign a (EOp (OReg cls letters)) e)) D V
| sf_casg_reg D V a cls letters acc e :               (* RxV += e;  RxV -= e;  RxV *= e;  (also RdV, PxV, RxxV ...) *)
    (a = AAdd \/ a = ASub \/ a = AMul) ->
    dest_cls cls -> access_of_letters letters = Some acc ->
    rw (RIsa cls (substring 0 1 letters) false) = dest_w cls acc ->
    pfrag rw IM V e -> sfrag rw IM D V (SExpr (EAssign a (EOp (OReg cls letters)) e)) D V
| sf_sasg_var D V a x sg w e :                        (* x <<= e;  x >>= e;  for a declared local that has a value *)
    (a = AShl \/ a = AShr) ->
    lookup x V = Some (Some (ty_int sg w)) -> okw w ->
    pfrag rw IM V e -> sfrag rw IM D V (SExpr (EAssign a (EOp (OIdent x)) e)) D V
| sf_sasg_reg D V a cls letters acc e :               (* RxV <<= e;  RxV >>= e; *)
    (a = AShl \/ a = AShr) ->
    dest_cls cls -> access_of_letters letters = Some acc ->
    rw (RIsa cls (substring 0 1 letters) false) = dest_w cls acc ->
    pfrag rw IM V e -> sfrag rw IM D V (SExpr (EAssign a (EOp (OReg cls letters)) e)) D V
| sf_decl D V ts sg w x e :                           (* T x = e;  for a fresh name *)
    decl_ty ts sg w -> lookup x D = None -> ~ reserved IM x ->
    pfrag rw IM V e ->
    sfrag rw IM D V (SDecl ts x (Some e)) (D ++ [(x, Some (ty_int sg w))]) (V ++ [(x, Some (ty_int sg w))])
| sf_decl0 D V ts sg w x :                            (* T x;  for a fresh name: declared, no value yet *)
    decl_ty ts sg w -> lookup x D = None -> ~ reserved IM x ->
    sfrag rw IM D V (SDecl ts x None) (D ++ [(x, Some (ty_int sg w))]) V
| sf_expr_imm D V l :                                  (* (uiV);  an immediate as expression statement (QEMU's fIMMEXT(uiV)): declares it *)
    IM l = true -> sfrag rw IM D V (SExpr (EOp (OImm l))) D V
| sf_empty D V : sfrag rw IM D V SEmpty D V              (* ; *)
| sf_nop D V : sfrag rw IM D V SNop D V
| sf_cancel D V : sfrag rw IM D V SCancel D V           (* cancel_slot;  (CSem prescribes no result for it: see sinv_cancel) *)
| sf_ssc D V a b :                                    (* STORE_SLOT_CANCELLED(a, b);  (CSem prescribes no result for it: see sinv_ssc) *)
    carg rw IM D V a -> carg rw IM D V b ->
    sfrag rw IM D V (SExpr (Ast.ECall ssc_name (ECons a (ECons b ENil)))) D V
| sf_store D V sg w a v :                             (* mem_store_<s|u><w>(a, v); *)
    okw w -> pfrag rw IM V a -> pfrag rw IM V v -> sfrag rw IM D V (SStore sg w (ECons a (ECons v ENil))) D V
| sf_jump D V e : pfrag rw IM V e -> sfrag rw IM D V (SJump e) D V   (* JUMP(e); *)
| sf_block D V l D' V' : sfrags rw IM D V l D' V' -> sfrag rw IM D V (SBlock l) D' V'      (* { ... } *)
| sf_if D V c t : pfrag rw IM V c -> sfrag rw IM D V t D V -> sfrag rw IM D V (SIf c t None) D V
| sf_ifelse D V c t f V1 :                            (* both branches may give the same declared locals their first value *)
    pfrag rw IM V c -> sfrag rw IM D V t D V1 -> sfrag rw IM D V f D V1 -> sfrag rw IM D V (SIf c t (Some f)) D V1
| sf_for D V e0 D1 V1 c inc i sg b :                  (* for (i = e; c; i++) body   (also i--): i a 32 bit local, body without loop *)
    sfrag rw IM D V (SExpr e0) D1 V1 -> pfrag rw IM V1 c ->
    lookup i V1 = Some (Some (ty_int sg 32)) ->
    sfrag rw IM D1 V1 b D1 V1 -> noloop b = true ->
    sfrag rw IM D V (SFor (SExpr e0) (SExpr c) (Some (EPost inc (EOp (OIdent i)))) b) D1 V1
with sfrags (rw : regwidth) (IM : string -> bool) :
  list (string * option vtype) -> list (string * option vtype) -> cstmts ->
  list (string * option vtype) -> list (string * option vtype) -> Prop :=
| sfs_nil D V : sfrags rw IM D V SNil D V
| sfs_cons D V s D1 V1 l D2 V2 : sfrag rw IM D V s D1 V1 -> sfrags rw IM D1 V1 l D2 V2 -> sfrags rw IM D V (SCons s l) D2 V2.

Scheme sfrag_mut := Minimality for sfrag Sort Prop
with sfrags_mut := Minimality for sfrags Sort Prop.
Combined Scheme sfrag_mutind from sfrag_mut, sfrags_mut.

(* the locals with a value stay among the declared ones *)
Lemma sfrag_vext_both rw IM :
  (forall D V s D' V', sfrag rw IM D V s D' V' -> vext V D -> vext V' D') /\
  (forall D V l D' V', sfrags rw IM D V l D' V' -> vext V D -> vext V' D').
Proof.
  apply sfrag_mutind; intros; auto using vext_app, vext_app_r, vext_app_l.
Qed.
Lemma sfrag_vext rw IM D V s D' V' : sfrag rw IM D V s D' V' -> vext V D -> vext V' D'.
Proof. apply (proj1 (sfrag_vext_both rw IM)). Qed.
Lemma sfrags_vext rw IM D V l D' V' : sfrags rw IM D V l D' V' -> vext V D -> vext V' D'.
Proof. apply (proj2 (sfrag_vext_both rw IM)). Qed.

Section StmtCorrect.
  Variables (subsigs : list subsig) (macs : list macsig) (cret : option vtype) (hstart : N).
  (* the macro table gives QEMU's bit-field macros their standard signatures (ExprCorrect.macs_std) *)
  Hypothesis Hmacs : macs_std macs.
  (* STORE_SLOT_CANCELLED is not a compiled sub-routine (only sinv_ssc uses this) *)
  Hypothesis Hssc : subs_ext subsigs.
  Local Notation cfg := (mkcfg all_fixes subsigs macs [] cret hstart).
  Variable rw : regwidth.
  (* the immediates the behaviour uses *)
  Variable IM : string -> bool.
  Hypothesis HIM : im_ok IM.
  (* the register table / removed names the effect is finalised against, and the executed immediate prologue *)
  Variables (R : list (string * reginfo)) (rem : list string) (J : list effect).
  Variable ilsubs : subenv.
  Variable E : cenv.
  Variable csub : csubs.
  (* CSem's sub-routine table gives STORE_SLOT_CANCELLED no body (only sinv_ssc uses this) *)
  Hypothesis Hcssc : csub_ext csub.
  Variable xi : string -> bool -> option (regop * N).
  Hypothesis Hxiok : xi_ok xi.

  Local Notation conv_to := (conv_to rw R rem).

  Lemma cast_operands_imm a b st :
    cast_operands cfg true a b st =
    (do b' <- (do eq <- ty_eq (pv_ty a) (pv_ty b); if eq then ret b else init_a_cast cfg (pv_ty a) b); ret (a, b')) st.
  Proof. unfold cast_operands, bind. destruct (ty_eq (pv_ty a) (pv_ty b) st) as [[[|] s1]|]; reflexivity. Qed.

  (* the conversion of an assignment's source to the (integer) type of its destination *)
  Lemma cast_imm_ok dest src st sg w : okw w -> ity (pv_ty dest) sg w -> goodpv src ->
    exists src', cast_operands cfg true dest src st = OK ((dest, src'), st) /\ ity (pv_ty src') sg w /\ goodpv src' /\ conv_to sg w src src'.
  Proof.
    intros Hw Hd Hg. destruct (conv_back_ok subsigs macs cret hstart rw R rem (pv_ty dest) src st sg w Hw Hd Hg) as (src' & C & H).
    exists src'. split; [rewrite cast_operands_imm; unfold bind at 1; rewrite C; reflexivity | exact H].
  Qed.

  Lemma cast_self_ok dest src st : goodpv src -> pv_ty dest = pv_ty src ->
    cast_operands cfg true dest src st = OK ((dest, src), st).
  Proof.
    intros Hg Hd. unfold cast_operands, bind, ty_eq. rewrite Hd, (proj1 (goodpv_numeric src Hg)).
    cbn [andb ret]. rewrite vtype_eqb_refl. reflexivity.
  Qed.

  Lemma bind_bind_OK {A B C} (m : M A) (f : A -> M B) (g : B -> M C) st b st' :
    bind m f st = OK (b, st') -> bind m (fun a => bind (f a) g) st = g b st'.
  Proof. unfold bind. destruct (m st) as [[a s1]|]; [|discriminate]. intros ->. reflexivity. Qed.

  (* chk_hybrid_dep leaves an effect alone when no hybrid is pending, and also when the effect mentions no temporary
     (inside the body of a for loop the hybrid of the loop's i++ is pending: it belongs to the loop, not to the body) *)
  Lemma chk_nil e b st : st_pending st = [] \/ le_tmps e = [] -> chk_hybrid_dep e b false st = OK (e, st).
  Proof.
    intros [H | H]; unfold chk_hybrid_dep, bind, get; [rewrite H; reflexivity|].
    destruct (st_pending st) as [|p0 l]; [reflexivity|]. rewrite H. reflexivity.
  Qed.

  Lemma hyb_nil e st : st_pending st = [] \/ le_tmps e = [] -> hyb_wrapped e st = OK (false, st).
  Proof.
    intros [H | H]; unfold hyb_wrapped, bind, get, ret; [rewrite H; reflexivity|].
    destruct (st_pending st) as [|p0 l]; [reflexivity|]. rewrite H. reflexivity.
  Qed.

  Lemma decl_ty_ok ts sg w st : decl_ty ts sg w ->
    decl_type ts st = OK (ty_int sg w, st) /\ resolve_ty_c ts = Some (sg, w) /\ okw w.
  Proof.
    intros [H | [b [-> [-> Hw]]]].
    - destruct (cast_ty_ok ts sg w st H) as [_ [H2 H3]]. split; [|auto].
      destruct H as [[-> Hw] | [[-> [-> ->]] | [[-> [-> ->]] | [[-> [-> ->]] | [b [-> [-> Hw]]]]]]]; reflexivity.
    - repeat split; auto.
  Qed.

  Lemma set_var_fresh x t st : lookup x (st_vars st) = None ->
    set_var x t st = OK (tt, mkst (st_vars st ++ [(x, t)]) (st_regs st) (st_pending st) (st_hcount st) (st_imms st) true (st_removed st)).
  Proof. intros H. unfold set_var, bind, get, put. rewrite (lookup_none_existsb x _ H). reflexivity. Qed.

  Lemma st_ext_vars st vars : st_ext st (mkst vars (st_regs st) (st_pending st) (st_hcount st) (st_imms st) true (st_removed st)).
  Proof.
    unfold st_ext; cbn [st_pending st_hcount st_imms st_removed st_nonempty st_regs].
    repeat split; auto using incl_refl, regs_le_refl, N.le_refl.
  Qed.

  Lemma lst_ok_decl V st x sg w : lst_ok IM V st -> ~ reserved IM x ->
    lst_ok IM (V ++ [(x, Some (ty_int sg w))])
      (mkst (st_vars st ++ [(x, Some (ty_int sg w))]) (st_regs st) (st_pending st) (st_hcount st) (st_imms st) true (st_removed st)).
  Proof.
    intros [H1 [H2 [H3 [H4 H5]]]] Hnr. destruct (not_reserved_imm IM x Hnr) as [Hx _]. pose proof (not_reserved_htmp IM x Hnr) as Hxh.
    unfold lst_ok. cbn [st_vars st_imms st_regs].
    split; [|split; [|split; [|split; [|exact H5]]]].
    - intros y Hy Hh. rewrite !lookup_app. specialize (H1 y Hy Hh).
      destruct (lookup y (st_vars st)) as [o|]; cbn [option_map] in *; rewrite <- H1; [reflexivity|].
      cbn [lookup]. destruct (String.eqb y x); reflexivity.
    - intros l Hl. rewrite lookup_app, (H2 l Hl). cbn [lookup].
      destruct (String.eqb_spec l x) as [->|_]; [|reflexivity]. destruct Hl as [Hl | Hl]; congruence.
    - intros l Hl. rewrite lookup_snoc_other by (apply (imm_letter_neq IM); assumption). exact (H3 l Hl).
    - eapply Forall_impl; [|exact H4]. intros e [l [A [B C]]]. exists l. split; [exact A|]. split; [exact B|].
      apply lookup_snoc_some. exact C.
  Qed.

  (* unfolding equations of the fuelled executor, stated with the constants (cbn leaves the mutual
     fixpoint unfolded) *)
  Lemma cexec_0 s st : cexec E csub xi 0 s st = None.
  Proof. reflexivity. Qed.
  Lemma cexec_expr k s e : cs_ret s = None -> cexec E csub xi (S k) s (SExpr e) = option_map fst (ceval E csub xi k s e).
  Proof. intros H. cbn [cexec]. rewrite H. reflexivity. Qed.
  Lemma cexec_decl k s t x e : cs_ret s = None ->
    cexec E csub xi (S k) s (SDecl t x (Some e)) =
    match resolve_ty_c t, ceval E csub xi k s e with
    | Some ty, Some (s1, v) => Some (CSem.set_var s1 x (conv ty v))
    | _, _ => None end.
  Proof. intros H. cbn [cexec]. rewrite H. reflexivity. Qed.
  Lemma cexec_if k s c t f : cs_ret s = None ->
    cexec E csub xi (S k) s (SIf c t f) =
    match ceval E csub xi k s c with
    | Some (s1, vc) => if negb (snd vc =? 0) then cexec E csub xi k s1 t
                       else match f with Some fs => cexec E csub xi k s1 fs | None => Some s1 end
    | None => None end.
  Proof. intros H. cbn [cexec]. rewrite H. reflexivity. Qed.
  Lemma cexec_block k s l : cs_ret s = None -> cexec E csub xi (S k) s (SBlock l) = cexecs E csub xi k s l.
  Proof. intros H. cbn [cexec]. rewrite H. reflexivity. Qed.
  Lemma cexec_empty k s : cs_ret s = None -> cexec E csub xi (S k) s SEmpty = Some s.
  Proof. intros H. cbn [cexec]. rewrite H. reflexivity. Qed.
  Lemma cexec_nop k s : cs_ret s = None -> cexec E csub xi (S k) s SNop = Some s.
  Proof. intros H. cbn [cexec]. rewrite H. reflexivity. Qed.
  Lemma cexecs_0 s l : cexecs E csub xi 0 s l = None.
  Proof. reflexivity. Qed.
  Lemma cexecs_nil k s : cexecs E csub xi (S k) s SNil = Some s.
  Proof. reflexivity. Qed.
  Lemma cexecs_cons k s st t :
    cexecs E csub xi (S k) s (SCons st t) =
    match cexec E csub xi k s st with Some s1 => cexecs E csub xi k s1 t | None => None end.
  Proof. reflexivity. Qed.
  Lemma ceval_0 s e : ceval E csub xi 0 s e = None.
  Proof. reflexivity. Qed.
  Lemma ceval_op k s o l : operand_lval E xi s o = Some l ->
    ceval E csub xi (S k) s (EOp o) = match read_lval E s l with Some v => Some (s, v) | None => None end.
  Proof. intros H. destruct o; try discriminate H; cbn [ceval]; rewrite H; reflexivity. Qed.
  Lemma ceval_assign k s a o e :
    ceval E csub xi (S k) s (EAssign a (EOp o) e) =
    match ceval E csub xi k s e with
    | Some (s1, vr) =>
        match operand_lval E xi s1 o with
        | Some lv =>
            match asg_binop_c a with
            | None => Some (write_lval s1 lv vr, conv (lval_ty lv) vr)
            | Some b => match read_lval E s1 lv with
                        | Some old => match c_binop b old vr with
                                      | Some res => Some (write_lval s1 lv res, conv (lval_ty lv) res)
                                      | None => None end
                        | None => None end
            end
        | None => None end
    | None => None end.
  Proof. reflexivity. Qed.

  (* what o op= e stores, given the old value of o and the value of e (o = e: the value of e) *)
  Definition asg_value (a : asgop) (old vr : cval) : option cval :=
    match asg_binop_c a with None => Some vr | Some b => c_binop b old vr end.

  Lemma cexec_assign_inv fuel cs a o e cs' : cs_ret cs = None ->
    cexec E csub xi fuel cs (SExpr (EAssign a (EOp o) e)) = Some cs' ->
    exists k s1 vr lv old res, ceval E csub xi k cs e = Some (s1, vr) /\ operand_lval E xi s1 o = Some lv /\
      (asg_binop_c a = None \/ read_lval E s1 lv = Some old) /\ asg_value a old vr = Some res /\ cs' = write_lval s1 lv res.
  Proof.
    intros Hr H. destruct fuel as [|[|k]]; [rewrite cexec_0 in H; discriminate H| |]; rewrite cexec_expr in H by exact Hr.
    - rewrite ceval_0 in H. discriminate H.
    - rewrite ceval_assign in H. unfold asg_value.
      destruct (ceval E csub xi k cs e) as [[s1 vr]|] eqn:Ee; [|discriminate H].
      destruct (operand_lval E xi s1 o) as [lv|] eqn:Eo; [|discriminate H].
      destruct (asg_binop_c a) as [b|].
      + destruct (read_lval E s1 lv) as [old|] eqn:Er; [|discriminate H].
        destruct (c_binop b old vr) as [res|] eqn:Eb; [|discriminate H]. injection H as <-.
        exists k, s1, vr, lv, old, res. auto 6.
      + injection H as <-. exists k, s1, vr, lv, vr, vr. auto 6.
  Qed.

  Lemma runs_writereg r p ms w z : eval rw ms [] p = Some (VBv w z) -> rw r = w ->
    runs rw ilsubs (EWriteReg r p) ms (set_reg ms r z).
  Proof. intros He Hw. exists 1%nat. cbn [exec]. rewrite He, Hw, N.eqb_refl. reflexivity. Qed.

  Lemma runs_setl x p ms v : eval rw ms [] p = Some v ->
    (lookup x (locals ms) = None \/ exists old, lookup x (locals ms) = Some old /\ sort_of_val old = sort_of_val v) ->
    runs rw ilsubs (ESetL x p) ms (set_local ms x v).
  Proof.
    intros He Hl. exists 1%nat. cbn [exec]. rewrite He.
    destruct Hl as [-> | [old [-> Hs]]]; [reflexivity|]. rewrite Hs, sort_eqb_refl. reflexivity.
  Qed.

  Lemma lower_expr_op o : lower_expr cfg (EOp o) = lower_operand cfg o.
  Proof. reflexivity. Qed.
  Lemma lower_stmt_expr e : lower_stmt cfg (SExpr e) = (do i <- lower_expr cfg e; ret [i]).
  Proof. reflexivity. Qed.

  Definition casg_tail (a : asgop) (il ir : item) : M item :=
    do dest <- (match il with IPure p => ret p | _ => fail "assignment destination" end);
    do '(src, chained) <- (match ir with
                           | IPure p => ret (p, None)
                           | IAsg e p => ret (p, Some e)
                           | _ => fail "assignment source" end);
    do '(dest', src') <- (match a with
                          | AMod | AShr | AShl => ret (dest, src)
                          | ADiv => if fx_divmod (fx cfg) then ret (dest, src) else cast_operands cfg true dest src
                          | _ => cast_operands cfg true dest src end);
    do src0 <- compound_src cfg a dest' src';
    do src'' <- (match a with
                 | AAssign => ret src0
                 | _ => if fx_compound_conv (fx cfg)
                        then (do eq <- ty_eq (pv_ty dest') (pv_ty src0); if eq then ret src0 else init_a_cast cfg (pv_ty dest') src0)
                        else ret src0
                 end);
    do asg <- mk_assign dest' src'';
    do w <- hyb_wrapped asg;
    do r <- chk_hybrid_dep asg false false;
    match chained with
    | None => if w then ret (IEff r) else ret (IAsg r src'')
    | Some inner =>
        let '(sq, _) := mk_sequence [IEff r; IEff inner] in
        do _ <- touch;
        do r2 <- chk_hybrid_dep sq false false;
        ret (IEff r2)
    end.
  Lemma lower_expr_casg a l r :
    lower_expr cfg (EAssign a l r) = (do il <- lower_expr cfg l; do ir <- lower_expr cfg r; casg_tail a il ir).
  Proof. reflexivity. Qed.

  Definition decl_tail (ty : vtype) (x : string) (ii : item) : M (list item) :=
    do src <- as_pure "initializer" ii;
    do _ <- (match lookup x (cfg_params cfg) with Some _ => fail "already defined as parameter" | None => ret tt end);
    do s0 <- get;
    do dty <- (match lookup x (st_vars s0) with
               | Some (Some t0) => ret t0
               | _ => ret (pv_ty src) end);
    do '(_, src1) <- cast_operands cfg true (mkpv (PVarL x) dty (KVar x) []) src;
    do _ <- (if vt_const dty then fail "Can not write to the value declared as const" else ret tt);
    do _ <- set_var x (Some ty);
    do '(_, src2) <- cast_operands cfg true (mkpv (PVarL x) ty (KVar x) []) src1;
    do asg <- chk_hybrid_dep (mkle (ESetL x (rd src2)) (pv_tmps src1) false) false false;
    ret [IEff asg].
  Lemma lower_stmt_decl ts x e :
    lower_stmt cfg (SDecl ts x (Some e)) = (do ty <- decl_type ts; do ii <- lower_expr cfg e; decl_tail ty x ii).
  Proof. reflexivity. Qed.

  Definition if_tail (ic : item) (it : list item) (e : option cstmt) : M (list item) :=
    let '(tseq, ttree) := mk_sequence it in
    do _ <- touch;
    do tseq' <- chk_hybrid_dep tseq false ttree;
    match e with
    | None =>
        do pc <- (match ic with IPure p => ret p | _ => fail "condition" end);
        do r <- chk_hybrid_dep (mkle (EBranch (cond_of cfg pc) (le_term tseq') EEmpty) (item_tmps ic ++ le_tmps tseq') false) false false;
        ret [IEff r]
    | Some es =>
        do ie <- lower_stmt cfg es;
        let '(eseq, etree) := mk_sequence ie in
        do eseq' <- chk_hybrid_dep eseq false etree;
        do pc <- (match ic with IPure p => ret p | _ => fail "condition" end);
        do r <- chk_hybrid_dep (mkle (EBranch (cond_of cfg pc) (le_term tseq') (le_term eseq')) (item_tmps ic ++ le_tmps tseq' ++ le_tmps eseq') false) false false;
        ret [IEff r]
    end.
  Lemma lower_stmt_if c t e :
    lower_stmt cfg (SIf c t e) = (do ic <- lower_expr cfg c; do it <- lower_stmt cfg t; if_tail ic it e).
  Proof. reflexivity. Qed.
  Lemma lower_stmt_empty : lower_stmt cfg SEmpty = (do _ <- touch; do r <- chk_hybrid_dep empty_eff false false; ret [IEff r]).
  Proof. reflexivity. Qed.
  Lemma lower_stmt_nop : lower_stmt cfg SNop = (do _ <- touch; ret [IEff (mkle ENop [] false)]).
  Proof. reflexivity. Qed.
  Lemma lower_stmt_block_nil :
    lower_stmt cfg (SBlock SNil) = (do _ <- touch; do r <- chk_hybrid_dep empty_eff false false; ret [IEff r]).
  Proof. reflexivity. Qed.
  Lemma lower_stmt_block_cons s t : lower_stmt cfg (SBlock (SCons s t)) = lower_stmts cfg (SCons s t).
  Proof. reflexivity. Qed.
  Lemma lower_stmts_nil : lower_stmts cfg SNil = ret [].
  Proof. reflexivity. Qed.
  Lemma lower_stmts_cons s t :
    lower_stmts cfg (SCons s t) = (do a <- lower_stmt cfg s; do b <- lower_stmts cfg t; ret (a ++ b)).
  Proof. reflexivity. Qed.

  Definition plain_item (i : item) : Prop := match i with IEff _ | IAsg _ _ | IVoid _ | IPure _ => True | _ => False end.
  (* the items of a loop-free statement mention no temporary *)
  Definition pitem (nl : bool) (i : item) : Prop := plain_item i /\ (nl = true -> item_tmps i = []).
  Lemma pitem_plain nl items : Forall (pitem nl) items -> Forall plain_item items.
  Proof. intros H. eapply Forall_impl; [|exact H]. intros i [Hi _]. exact Hi. Qed.
  Lemma pitem_weaken nl nl' items : (nl' = true -> nl = true) -> Forall (pitem nl) items -> Forall (pitem nl') items.
  Proof. intros Hn H. eapply Forall_impl; [|exact H]. intros i [Hi Ht]. split; [exact Hi | intros E'; exact (Ht (Hn E'))]. Qed.
  Lemma pitem_tmps items : Forall (pitem true) items -> flat_map item_tmps items = [].
  Proof. induction 1 as [|i l [_ Hi] _ IH]; [reflexivity|]. cbn [flat_map]. rewrite (Hi eq_refl), IH. reflexivity. Qed.

  (* the simulation diagram, for the C executor cex (cexec on a statement / cexecs on a list); J is the
     immediate prologue that has been executed (any list containing the entries the model has created) *)
  Definition sim (D V D' V' : list (string * option vtype)) (eff : effect) (cex : nat -> cstate -> option cstate) : Prop :=
    forall cs ms fuel cs', srel IM E D V cs ms -> imms_done IM E J cs ms -> cex fuel cs = Some cs' ->
      exists ms', runs rw ilsubs eff ms ms' /\ srel IM E D' V' cs' ms' /\ imms_done IM E J cs' ms'.

  (* what lowering a statement (list) yields: a state of the fragment over the new declarations D', an extension of the old
     state, effect items of the fragment, and -- finalised against any later register table, any prologue containing the
     immediates read -- an effect that simulates the C executor cex *)
  Definition post (D V D' V' : list (string * option vtype)) (nl : bool) (st st' : lstate) (items : list item)
                  (cex : nat -> cstate -> option cstate) : Prop :=
    lst_ok IM D' st' /\ st_ext st st' /\ Forall (pitem nl) items /\
    (regs_le (st_regs st') R -> norem rem -> incl (st_imms st') J ->
      sim D V D' V' (fin_eff R rem (seqn (flat_map item_effects items))) cex).

  (* the invariant every case of the induction over [sfrag] establishes (D is the model's variable table, V the locals the
     run-time states are related on; vext V D).  A hybrid may be pending only while the body of a for loop is lowered (the
     loop's own i++), and a body contains no loop: hence the premise "nothing pending, or s has no loop" *)
  Definition SInv (D V : list (string * option vtype)) (s : cstmt) (D' V' : list (string * option vtype)) : Prop :=
    forall st, vext V D -> lst_ok IM D st -> st_pending st = [] \/ noloop s = true ->
      exists items st', lower_stmt cfg s st = OK (items, st') /\
        post D V D' V' (noloop s) st st' items (fun fuel cs => cexec E csub xi fuel cs s) /\
        (started st -> st_nonempty st' = true).

  Definition SsInv (D V : list (string * option vtype)) (l : cstmts) (D' V' : list (string * option vtype)) : Prop :=
    forall st, vext V D -> lst_ok IM D st -> st_pending st = [] \/ noloops l = true ->
      exists items st', lower_stmts cfg l st = OK (items, st') /\
        post D V D' V' (noloops l) st st' items (fun fuel cs => cexecs E csub xi fuel cs l) /\
        (started st -> l <> SNil -> st_nonempty st' = true).

  Lemma mk_assign_reg dest src st st' name : vt_const (pv_ty dest) = false -> pv_kind dest = KReg name ->
    add_write_property name st = OK (tt, st') ->
    mk_assign dest src st = OK (mkle (EWriteReg (RParam ("$reg:" +++ name)) (rd src)) (pv_tmps dest ++ pv_tmps src) false, st').
  Proof. intros H1 H2 H3. unfold mk_assign. rewrite H1, H2. unfold bind. rewrite H3. reflexivity. Qed.

  Lemma mk_assign_var dest src st x : vt_const (pv_ty dest) = false ->
    (pv_kind dest = KVar x \/ exists b, pv_kind dest = KTmp x b) ->
    mk_assign dest src st = OK (mkle (ESetL x (rd src)) (pv_tmps dest ++ pv_tmps src) false, st).
  Proof. intros H1 [H2 | [b H2]]; unfold mk_assign; rewrite H1, H2; reflexivity. Qed.

  (* one step of a monadic computation whose result H gives *)
  Ltac step H := rewrite H; cbv beta iota.
  (* [tm0]: "this effect / item mentions no temporary", from the facts pv_tmps p = [] / goodpv p of the context;
     [pl0]: the items of a list are plain and (by tm0) mention no temporary *)
  Ltac tm0 :=
    repeat match goal with x := _ : pval |- _ => subst x end;
    cbn [le_tmps item_tmps pv_tmps app empty_eff];
    repeat match goal with
    | H : pv_tmps ?p = [] |- context [pv_tmps ?p] => rewrite H
    | H : goodpv ?p |- context [pv_tmps ?p] => rewrite (goodpv_tmps p H)
    end; cbn [app]; reflexivity.
  Ltac pl0 := repeat (apply Forall_cons || apply Forall_nil); try (split; [exact I | intros _; tm0]).

  (* the expression of a statement: ExprCorrect.expr_inv, with the premises of its semantic half discharged
     from those of the statement's simulation *)
  (* (the model state may know more declared locals, Vl, than the run-time states are related on: ExprCorrect.vext) *)
  Lemma expr_sim_ext V Vl e st : pfrag rw IM V e -> vext V Vl -> lst_ok IM Vl st ->
    exists pv st2, lower_expr cfg e st = OK (IPure pv, st2) /\ st_ext st st2 /\ lst_ok IM Vl st2 /\ goodpv pv /\
      forall st3, st_ext st2 st3 -> regs_le (st_regs st3) R -> norem rem -> incl (st_imms st3) J ->
      forall cs ms, rel IM E V cs ms -> imms_done IM E J cs ms ->
        exists ilv, sem rw R rem ms pv ilv /\
          forall fuel cs' cv, ceval E csub xi fuel cs e = Some (cs', cv) -> cs' = cs /\ cv = cval_of (pv_ty pv) ilv.
  Proof.
    intros Hfrag Hext Hok.
    destruct (expr_inv subsigs macs cret hstart Hmacs Hssc rw R rem IM E csub Hcssc xi Hxiok V e Hfrag Vl st Hext Hok) as [pv [st2 [L2 [X2 [K2 [G2 [_ [_ Hsem]]]]]]]].
    exists pv, st2. repeat (split; [assumption|]).
    intros st3 X3 HR Hrem HJ cs ms Hrel Himm.
    destruct (Hsem (regs_le_trans _ _ _ (st_ext_regs _ _ X3) HR) Hrem cs ms Hrel
                   (imms_done_incl _ _ _ _ _ _ (incl_tran (st_ext_imms _ _ X3) HJ) Himm)) as [ilv [Sv Hcv]].
    exists ilv. split; [exact Sv|]. intros fuel cs' cv Hce. exact (Hcv fuel cs' cv Hce I).
  Qed.

  (* [dst D V D' V' o sg w]: the operand o can be assigned a value of the C type (sg, w).  Lowered from a model state of D
     (lowering EA, i, j, k declares them: D'), it is an integer operand of that type that mk_assign turns into the write
     effect [wr]; at run time, from states related on V, C's lvalue of o is written together with [wr], which leaves states
     related on V'. *)
  Definition dst (D V D' V' : list (string * option vtype)) (o : operand) (sg : bool) (w : N) : Prop :=
    okw w /\
    forall st, vext V D -> lst_ok IM D st ->
    exists dest st1 (wr : pure -> effect),
      lower_operand cfg o st = OK (IPure dest, st1) /\ st_ext st st1 /\ lst_ok IM D' st1 /\ vext V D' /\
      (started st -> st_nonempty st1 = true) /\
      ity (pv_ty dest) sg w /\ intkind (pv_kind dest) /\ pv_tmps dest = [] /\
      (forall src st2, lst_ok IM D' st2 ->
         exists st3, mk_assign dest src st2 = OK (mkle (wr (rd src)) (pv_tmps dest ++ pv_tmps src) false, st3) /\
                     st_ext st2 st3 /\ lst_ok IM D' st3) /\
      (regs_le (st_regs st1) R -> norem rem -> incl (st_imms st1) J ->
       forall cs ms, srel IM E D V cs ms -> imms_done IM E J cs ms ->
         exists lv, operand_lval E xi cs o = Some lv /\
           forall p z v, eval rw ms [] (fin_pure R rem p) = Some (VBv w z) -> 0 <= z < pow2 w -> conv (sg, w) v = ((sg, w), z) ->
             exists ms', runs rw ilsubs (fin_eff R rem (wr p)) ms ms' /\
                         srel IM E D' V' (write_lval cs lv v) ms' /\ imms_done IM E J (write_lval cs lv v) ms').

  (* a register-like destination (RdV, an alias, an explicitly named register): an operand the model enters in its
     register table (Lower.add_reg) under the name of the key k, with the handle r and the type (sg, w) *)
  Lemma dst_regop D V o k ri0 sg w : reg_operand o k ri0 sg w -> k <> KeyPc -> r_pc ri0 = false ->
    regop_eqb pc_op (r_op ri0) = false -> rw (r_op ri0) = w ->
    (forall cs, exists fb, operand_lval E xi cs o = Some (LReg (r_op ri0) (sg, w) fb)) ->
    dst D V D V o sg w.
  Proof.
    intros Hop Hkpc Hp0 Hpc Hrw Hlv. pose proof Hop as (Hw & Hk & He0 & _). split; [exact Hw|]. intros st Hext Hok.
    destruct (reg_operand_low cfg o k ri0 sg w st Hop (lst_ok_regs_ok _ _ _ Hok)) as (st1 & L1 & V1 & I1 & X1 & R1 & N1 & ri1 & Lk1).
    set (n := tname k) in *.
    exists (mkpv (PRaw ("$reg:" +++ n)) (ty_int sg w) (KReg n) []), st1, (EWriteReg (RParam ("$reg:" +++ n))).
    split; [exact L1|]. split; [exact X1|].
    split; [eapply lst_ok_regs; eassumption|]. split; [exact Hext|].
    split; [exact N1|]. split; [apply ity_int|]. split; [exact I|]. split; [reflexivity|]. split.
    - intros src st2 Hok2.
      assert (Hn : n <> "pc") by (intros En; apply Hkpc; exact (tname_inj k KeyPc Hk pc_key En)).
      destruct (add_write_property_ok n st2 (lst_ok_regs_ok _ _ _ Hok2) Hn) as (st3 & W1 & V3 & I3 & X3 & R3).
      exists st3. split; [apply (mk_assign_reg _ src st2 st3 n); [reflexivity | reflexivity | exact W1]|]. split; [exact X3|].
      eapply lst_ok_regs; eassumption.
    - intros HR Hrem _ cs ms Hrel Himm. destruct (Hlv cs) as [fb Eo]. eexists. split; [exact Eo|].
      intros p z v Ez Hz Cz. cbn [write_lval]. rewrite Cz. cbn [snd].
      exists (set_reg ms (r_op ri0) z). split; [|split; [apply srel_set_reg; assumption | apply imms_done_set_reg; exact Himm]].
      destruct (entry_same n ri0 ri1 He0 (R1 _ _ Lk1)) as (Ho & _ & Hp & _). rewrite Hp0 in Hp.
      cbn [fin_eff]. rewrite (fin_op_at R rem _ n ri1 Lk1 HR Hrem Hp), Ho. eapply runs_writereg; [exact Ez | exact Hrw].
  Qed.

  Lemma dst_reg D V cls letters acc : dest_cls cls -> access_of_letters letters = Some acc ->
    rw (RIsa cls (substring 0 1 letters) false) = dest_w cls acc -> dst D V D V (OReg cls letters) true (dest_w cls acc).
  Proof.
    intros Hc Ha Hrw. rewrite <- (rop_dest cls letters false Hc) in Hrw.
    apply (dst_regop D V _ _ _ _ _ (isa_operand cls letters acc false (or_introl Hc) Ha));
      [discriminate | reflexivity | cbn [r_op]; rewrite (rop_dest cls letters false Hc); reflexivity | exact Hrw |].
    intros cs. cbn [operand_lval r_op]. rewrite (rop_dest cls letters false Hc), (proj1 (proj2 (dest_cls_widths cls Hc))).
    rewrite <- (proj1 (proj2 (access_letters _ _ Ha))). eexists. reflexivity.
  Qed.

  Lemma dst_alias D V name new : In name alias_names -> rw (alias_op name new) = alias_w name ->
    dst D V D V (OAlias name new) false (alias_w name).
  Proof.
    intros Hin Hrw.
    apply (dst_regop D V _ _ _ _ _ (alias_operand name new Hin));
      [discriminate | reflexivity | exact (alias_op_not_pc name new Hin) | exact Hrw |].
    intros cs. eexists. reflexivity.
  Qed.

  Lemma dst_expl D V name new : In name expl_names -> rw (expl_op name new) = expl_w name ->
    dst D V D V (OExplicit name new) true (expl_w name).
  Proof.
    intros Hin Hrw.
    apply (dst_regop D V _ _ _ _ _ (expl_operand name new Hin));
      [discriminate | reflexivity | exact (expl_op_not_pc name new Hin) | exact Hrw |].
    intros cs. cbn [operand_lval r_op]. rewrite (Hxiok name new Hin), (proj1 (expl_facts name new Hin)). eexists. reflexivity.
  Qed.

  (* an immediate *)
  Lemma dst_imm D V l : IM l = true -> dst D V D V (OImm l) (imm_signed l) 32.
  Proof.
    intros Hl. split; [exact okw32|]. intros st Hext Hok.
    destruct (imm_low subsigs macs cret hstart IM D l st Hl Hok) as (st1 & L1 & X1 & Hok1 & In1 & N1).
    eexists _, st1, (ESetL l).
    split; [exact L1|]. split; [exact X1|]. split; [exact Hok1|]. split; [exact Hext|]. split; [exact N1|].
    split; [apply ity_int|]. split; [exact I|]. split; [reflexivity|]. split.
    - intros src st2 Hok2. exists st2. split; [apply mk_assign_var; [reflexivity | left; reflexivity]|].
      split; [apply st_ext_refl | exact Hok2].
    - intros _ _ HJ cs ms Hrel Himm. exists (LImm l (imm_signed l, 32%N)). split; [reflexivity|].
      intros p z v Ez Hz Cz. cbn [write_lval]. rewrite Cz.
      exists (set_local ms l (VBv 32 z)). split; [|split; [apply srel_asg_imm; assumption | apply imms_done_asg_imm; exact Himm]].
      apply runs_setl; [exact Ez|]. right. exists (VBv 32 (cimm E cs l)). split; [exact (Himm l Hl (HJ _ In1)) | reflexivity].
  Qed.

  (* a declared local (D gives its type; the model state may have set the hybrid flag on it) *)
  Lemma lower_local D st x sg w : lst_ok IM D st -> lookup x D = Some (Some (ty_int sg w)) ->
    exists tx, lower_operand cfg (OIdent x) st = OK (IPure (mkpv (PVarL x) tx (KVar x) []), st) /\ ity tx sg w /\
               (started st -> st_nonempty st = true).
  Proof.
    intros Hok Hx. destruct (lst_ok_local IM D st x sg w Hok Hx) as (_ & Hxh & tx & Hxs & Htx).
    exists tx. split; [|split; [exact Htx|]].
    - cbn [lower_operand cfg_params lookup]. unfold bind, get. rewrite Hxs. fold (is_htmp x). rewrite Hxh. reflexivity.
    - intros [Hst | [Hst _]]; [exact Hst | rewrite Hst in Hxs; discriminate Hxs].
  Qed.

  Lemma mk_assign_local x t src st sg w : ity t sg w ->
    mk_assign (mkpv (PVarL x) t (KVar x) []) src st = OK (mkle (ESetL x (rd src)) ([] ++ pv_tmps src) false, st).
  Proof. intros Ht. apply mk_assign_var; [exact (ity_const _ _ _ Ht) | left; reflexivity]. Qed.

  (* a declared local that has a value *)
  Lemma dst_var D V x sg w : lookup x V = Some (Some (ty_int sg w)) -> okw w -> dst D V D V (OIdent x) sg w.
  Proof.
    intros Hx Hw. split; [exact Hw|]. intros st Hext Hok.
    destruct (lower_local D st x sg w Hok (Hext _ _ Hx)) as (tx & L1 & Htx & N1).
    eexists _, st, (ESetL x).
    split; [exact L1|]. split; [apply st_ext_refl|]. split; [exact Hok|]. split; [exact Hext|]. split; [exact N1|].
    split; [exact Htx|]. split; [exact I|]. split; [reflexivity|]. split.
    - intros src st2 Hok2. exists st2. split; [exact (mk_assign_local x tx src st2 sg w Htx)|]. split; [apply st_ext_refl | exact Hok2].
    - intros _ _ _ cs ms Hrel Himm. destruct (proj1 (proj1 Hrel) x sg w Hx Hw) as (v0 & Hcx & _ & Hmx).
      exists (LVar x (sg, w)). split; [cbn [operand_lval]; rewrite Hcx; reflexivity|].
      intros p z v Ez Hz Cz. cbn [write_lval]. rewrite Cz.
      exists (set_local ms x (VBv w z)).
      split; [|split; [apply srel_set_var; assumption | apply imms_done_set_local; [exact (srel_nr _ _ _ _ _ _ _ _ Hrel Hx) | exact Himm]]].
      apply runs_setl; [exact Ez|]. right. exists (VBv w v0). split; [exact Hmx | reflexivity].
  Qed.

  (* a local declared without initialiser, given its first value *)
  Lemma dst_first D V x sg w : lookup x D = Some (Some (ty_int sg w)) -> lookup x V = None -> okw w ->
    dst D V D (V ++ [(x, Some (ty_int sg w))]) (OIdent x) sg w.
  Proof.
    intros Hx HxV Hw. split; [exact Hw|]. intros st Hext Hok.
    destruct (lower_local D st x sg w Hok Hx) as (tx & L1 & Htx & N1).
    eexists _, st, (ESetL x).
    split; [exact L1|]. split; [apply st_ext_refl|]. split; [exact Hok|]. split; [exact Hext|]. split; [exact N1|].
    split; [exact Htx|]. split; [exact I|]. split; [reflexivity|]. split.
    - intros src st2 Hok2. exists st2. split; [exact (mk_assign_local x tx src st2 sg w Htx)|]. split; [apply st_ext_refl | exact Hok2].
    - intros _ _ _ cs ms Hrel Himm. pose proof Hrel as (_ & Hloc & _ & _ & Hres & _ & _ & Hcloc & _).
      assert (Hnr : ~ reserved IM x) by (intros Hr; rewrite (Hres x Hr) in Hx; discriminate Hx).
      pose proof (Hcloc x HxV Hnr) as Hcx. rewrite Hx in Hcx. cbn [vt_sg vt_w ty_int] in Hcx.
      exists (LVar x (sg, w)). split; [cbn [operand_lval]; rewrite Hcx; reflexivity|].
      intros p z v Ez Hz Cz. cbn [write_lval]. rewrite Cz.
      exists (set_local ms x (VBv w z)). split; [|split; [apply srel_first; assumption | apply imms_done_set_local; assumption]].
      apply runs_setl; [exact Ez|]. left. exact (Hloc x HxV Hnr).
  Qed.

  (* EA, i, j, k: declared (uint32_t) by their first assignment *)
  Lemma lower_operand_implicit x st : implicit_name x -> lookup x (st_vars st) = None ->
    lower_operand cfg (OIdent x) st =
    OK (IPure (mkpv (PVarL x) (ty_int false 32) (KVar x) []),
        mkst (st_vars st ++ [(x, Some (ty_int false 32))]) (st_regs st) (st_pending st) (st_hcount st) (st_imms st) true (st_removed st)).
  Proof.
    intros [-> | [-> | [-> | ->]]] H; cbn [lower_operand cfg_params lookup]; unfold bind, get; rewrite H; reflexivity.
  Qed.
  Lemma operand_lval_implicit cs x : implicit_name x -> lookup x (cs_vars cs) = None ->
    operand_lval E xi cs (OIdent x) = Some (LVar x (false, 32%N)).
  Proof. intros [-> | [-> | [-> | ->]]] H; cbn [operand_lval]; rewrite H; reflexivity. Qed.

  Lemma dst_implicit D V x : implicit_name x -> lookup x D = None -> ~ reserved IM x ->
    dst D V (D ++ [(x, Some (ty_int false 32))]) (V ++ [(x, Some (ty_int false 32))]) (OIdent x) false 32.
  Proof.
    intros Hi Hx Hnr. split; [exact okw32|]. intros st Hext Hok. pose proof (vext_none V D x Hext Hx) as HxV.
    assert (Hxs : lookup x (st_vars st) = None)
      by exact (lst_ok_none IM D st x Hok (proj1 (not_reserved_imm IM x Hnr)) (not_reserved_htmp IM x Hnr) Hx).
    eexists _, _, (ESetL x).
    split; [exact (lower_operand_implicit x st Hi Hxs)|]. split; [apply st_ext_vars|].
    split; [apply lst_ok_decl; assumption|]. split; [apply vext_app_r; exact Hext|]. split; [reflexivity|].
    split; [apply ity_int|]. split; [exact I|]. split; [reflexivity|]. split.
    - intros src st2 Hok2. exists st2. split; [exact (mk_assign_local x _ src st2 false 32 (ity_int _ _))|]. split; [apply st_ext_refl | exact Hok2].
    - intros _ _ _ cs ms Hrel Himm. pose proof Hrel as (_ & Hloc & _ & _ & _ & _ & _ & Hcloc & _).
      pose proof (Hcloc x HxV Hnr) as Hcx. rewrite Hx in Hcx.
      exists (LVar x (false, 32%N)). split; [exact (operand_lval_implicit cs x Hi Hcx)|].
      intros p z v Ez Hz Cz. cbn [write_lval]. rewrite Cz.
      exists (set_local ms x (VBv 32 z)). split; [|split; [apply srel_decl; assumption | apply imms_done_set_local; assumption]].
      apply runs_setl; [exact Ez|]. left. exact (Hloc x HxV Hnr).
  Qed.

  Definition is_casg (a : asgop) : Prop := a = AAdd \/ a = ASub \/ a = AMul.
  Definition is_sasg (a : asgop) : Prop := a = AShl \/ a = AShr.
  Definition is_basg (a : asgop) : Prop := a = AAnd \/ a = AOr \/ a = AXor.
  Definition asg_ok (a : asgop) : Prop := a = AAssign \/ is_casg a \/ is_sasg a \/ is_basg a.
  Definition cfun (a : asgop) : Z -> Z -> Z := match a with AAdd => Z.add | ASub => Z.sub | _ => Z.mul end.
  Definition cbop (a : asgop) : Ast.binop := match a with AAdd => Ast.BAdd | ASub => Ast.BSub | _ => Ast.BMul end.
  Definition cop (a : asgop) : RzIL.binop := match a with AAdd => RzIL.BAdd | ASub => RzIL.BSub | _ => RzIL.BMul end.
  Definition bfun (a : asgop) : Z -> Z -> Z := match a with AAnd => Z.land | AOr => Z.lor | _ => Z.lxor end.
  Definition bop (a : asgop) : RzIL.binop := match a with AAnd => BLogAnd | AOr => BLogOr | _ => BLogXor end.
  Lemma bfun_bit a : bit_fun3 (bfun a).
  Proof. unfold bit_fun3. destruct a; cbn; auto. Qed.

  (* [rhs_spec a dest pv sg w]: for the destination dest of type (sg, w) and the lowered source pv, the model's assignment
     callback builds a source src2 and hands it to mk_assign; src2 evaluates to the value C stores (converted to the type
     of the destination).  The old value is that of dest. *)
  Definition rhs_spec (a : asgop) (dest pv : pval) (sg : bool) (w : N) : Prop :=
    forall st, exists src2,
      (forall asg st3, mk_assign dest src2 st = OK (asg, st3) -> le_tmps asg = [] ->
         casg_tail a (IPure dest) (IPure pv) st = OK (IAsg asg src2, st3)) /\
      pv_tmps src2 = [] /\
      forall ms ilv old res, sem rw R rem ms pv ilv ->
        asg_binop_c a = None \/ (exists vd, sem rw R rem ms dest vd /\ old = cval_of (pv_ty dest) vd) ->
        asg_value a old (cval_of (pv_ty pv) ilv) = Some res ->
        exists z, 0 <= z < pow2 w /\ eval rw ms [] (fin_pure R rem (pv_term src2)) = Some (VBv w z) /\
                  conv (sg, w) res = ((sg, w), z).

  Lemma asg_finish dest src asg st st3 : mk_assign dest src st = OK (asg, st3) -> le_tmps asg = [] ->
    (do asg <- mk_assign dest src; do w <- hyb_wrapped asg; do r <- chk_hybrid_dep asg false false;
     if w then ret (IEff r) else ret (IAsg r src)) st = OK (IAsg asg src, st3).
  Proof. intros Hm Hp. unfold bind. rewrite Hm, hyb_nil, chk_nil by (right; exact Hp). reflexivity. Qed.

  Lemma rhs_plain dest pv sg w : okw w -> ity (pv_ty dest) sg w -> goodpv pv -> rhs_spec AAssign dest pv sg w.
  Proof.
    intros Hw Td G2 st. destruct (cast_imm_ok dest pv st sg w Hw Td G2) as (src' & C1 & _ & G1 & Hc1).
    exists src'. split; [|split; [exact (goodpv_tmps src' G1)|]].
    - intros asg st3 Hm Hp. unfold casg_tail. unfold bind at 1 2 3. unfold ret at 1 2. rewrite C1. cbn [compound_src].
      unfold bind at 1 2. unfold ret at 1 2. apply asg_finish; assumption.
    - intros ms ilv old res Sv _ Hres. injection Hres as <-. exact (Hc1 ms ilv Sv).
  Qed.

  (* += -= *= : the source is converted to the type of the destination, both are promoted, the result is converted back *)
  Lemma rhs_ring a dest pv sg w : is_casg a -> okw w -> goodpv dest -> ity (pv_ty dest) sg w -> goodpv pv -> rhs_spec a dest pv sg w.
  Proof.
    intros Ha Hw Gd Td G2 st.
    destruct (cast_imm_ok dest pv st sg w Hw Td G2) as (src' & Hco & T1 & G1 & Hc1).
    destruct (promotion_cast_ok subsigs macs cret hstart rw R rem dest st Gd) as (pd & A1 & A2 & A3 & A4 & _ & A5).
    destruct (promotion_cast_ok subsigs macs cret hstart rw R rem src' st G1) as (ps & B1 & B2 & B3 & B4 & _ & B5).
    rewrite (cty_of_ity _ sg w T1) in B3, B4, B5. rewrite (cty_of_ity _ sg w Td) in A3, A4, A5.
    set (tp := promote (sg, w)) in *.
    destruct (ity_inv _ _ _ A3) as [hA EA3]. destruct (ity_inv _ _ _ B3) as [hB EB3].
    pose (src0 := mkpv (PBin (cop a) (rd pd) (rd ps)) (pv_ty pd) KExec (pv_tmps pd ++ pv_tmps ps)).
    assert (G0 : goodpv src0).
    { apply (goodpv_i _ (fst tp) (snd tp)); [exact A4 | exact A3 | exact I | exact (goodpv_tmps2 pd ps A2 B2)]. }
    destruct (conv_back_ok subsigs macs cret hstart rw R rem (pv_ty dest) src0 st sg w Hw Td G0) as (src2 & D1 & T2 & Gs2 & Hd1).
    exists src2. split; [|split; [exact (goodpv_tmps src2 Gs2)|]].
    - intros asg st3 Hm Hp.
      assert (Hcs : compound_src cfg a dest src' st = OK (src0, st)).
      { destruct Ha as [-> | [-> | ->]]; cbn [compound_src]; unfold bind; rewrite A1, B1; unfold ret, arith_il_exec, src0;
        rewrite EA3, EB3; cbn [vt_float ty_h andb]; reflexivity. }
      unfold casg_tail. unfold bind at 1 2. unfold ret at 1 2. cbv beta iota.
      destruct Ha as [-> | [-> | ->]]; unfold bind at 1; rewrite Hco; cbv beta iota; unfold bind at 1; rewrite Hcs;
      cbn [fx cfg_fx fx_compound_conv all_fixes]; unfold bind at 1; rewrite D1; apply asg_finish; assumption.
    - intros ms ilv old res Sv [Hn | (vd & Sd & ->)] Hres; [destruct Ha as [-> | [-> | ->]]; discriminate Hn|].
      destruct (sem_int rw R rem ms dest vd sg w Td Sd) as (v0 & -> & Hv0 & _).
      rewrite (cval_of_ity _ _ _ v0 Td) in Hres.
      destruct (Hc1 ms ilv Sv) as (z1 & Hz1 & Ez1 & Cz1).
      assert (Ss : sem rw R rem ms src' (VBv w z1)) by (split; [exact Ez1 | apply (shape_ity _ _ _ _ T1); exact Hz1]).
      destruct (A5 ms _ Sd) as (vd' & Sd' & Cd). destruct (B5 ms _ Ss) as (vs & Ss' & Cs).
      destruct (sem_int rw R rem ms pd vd' _ _ A3 Sd') as (xd & -> & Hxd & Ed).
      destruct (sem_int rw R rem ms ps vs _ _ B3 Ss') as (xs & -> & Hxs & Es).
      rewrite EA3 in Cd. rewrite EB3 in Cs. rewrite (cval_of_ity _ _ _ z1 T1) in Cs. rewrite (cval_of_ity _ _ _ v0 Td) in Cd.
      cbn [cval_of vt_sg ty_h] in Cd, Cs.
      assert (S0 : sem rw R rem ms src0 (VBv (snd tp) (wrap (snd tp) (cfun a xd xs)))).
      { split; [|unfold src0; cbn [pv_ty]; rewrite EA3; apply shape_h; apply wrap_range].
        unfold src0. cbn [pv_term fin_pure eval]. unfold rd. rewrite Ed, Es, N.eqb_refl.
        destruct Ha as [-> | [-> | ->]]; reflexivity. }
      destruct (Hd1 ms _ S0) as (z & Hz & Ez & Cz). exists z. split; [exact Hz|]. split; [exact Ez|].
      unfold src0 in Cz. cbn [pv_ty] in Cz. rewrite EA3 in Cz. cbn [cval_of vt_sg ty_h] in Cz.
      assert (Er : res = c_arith (cfun a) ((sg, w), v0) (cval_of (pv_ty pv) ilv))
        by (destruct Ha as [-> | [-> | ->]]; injection Hres as <-; reflexivity).
      rewrite Er, compound_value;
        [| exact Hw | apply wfc_cval_of; [exact G2 | apply Sv] | destruct Ha as [-> | [-> | ->]]; unfold ring_fun; cbn; auto].
      fold tp. rewrite Cz1, <- Cd, <- Cs. cbn [snd]. destruct tp as [sp wp]. exact Cz.
  Qed.

  (* <<= >>= : the source is NOT converted to the type of the destination first; both operands are promoted, the result is
     converted back *)
  Lemma rhs_shift a dest pv sg w : is_sasg a -> okw w -> goodpv dest -> ity (pv_ty dest) sg w -> goodpv pv -> rhs_spec a dest pv sg w.
  Proof.
    intros Ha Hw Gd Td G2 st.
    destruct (shift_compound_ok subsigs macs cret hstart rw R rem a dest pv st Ha Gd G2) as (src0 & Hcs & G0 & Hs0).
    destruct (conv_back_ok subsigs macs cret hstart rw R rem (pv_ty dest) src0 st sg w Hw Td G0) as (src2 & D1 & T2 & Gs2 & Hd1).
    exists src2. split; [|split; [exact (goodpv_tmps src2 Gs2)|]].
    - intros asg st3 Hm Hp. unfold casg_tail. unfold bind at 1 2. unfold ret at 1 2. cbv beta iota.
      destruct Ha as [-> | ->]; unfold bind at 1; unfold ret at 1; cbv beta iota; unfold bind at 1; rewrite Hcs;
      cbn [fx cfg_fx fx_compound_conv all_fixes]; unfold bind at 1; rewrite D1; apply asg_finish; assumption.
    - intros ms ilv old res Sv [Hn | (vd & Sd & ->)] Hres; [destruct Ha as [-> | ->]; discriminate Hn|].
      destruct (Hs0 ms _ _ Sd Sv) as (vr0 & S0 & Hc0). destruct (Hd1 ms _ S0) as (z & Hz & Ez & Cz).
      exists z. split; [exact Hz|]. split; [exact Ez|].
      rewrite (Hc0 res); [exact Cz|]. destruct Ha as [-> | ->]; exact Hres.
  Qed.

  (* &= |= ^= : no promotion, the operation is done at the type of the destination, and the conversion back (D14) is the
     identity *)
  Lemma rhs_bit a dest pv sg w : is_basg a -> okw w -> goodpv dest -> ity (pv_ty dest) sg w -> goodpv pv -> rhs_spec a dest pv sg w.
  Proof.
    intros Ha Hw Gd Td G2 st. destruct (ity_inv _ _ _ Td) as [h Et].
    destruct (cast_imm_ok dest pv st sg w Hw Td G2) as (src' & Hco & T1 & G1 & Hc1).
    exists (mkpv (PBin (bop a) (rd dest) (rd src')) (ty_h h sg w) KExec (pv_tmps dest ++ pv_tmps src')).
    split; [|split; [exact (goodpv_tmps2 dest src' Gd G1)|]].
    - intros asg st3 Hm Hp.
      unfold casg_tail. unfold bind at 1 2. unfold ret at 1 2. cbv beta iota.
      destruct Ha as [-> | [-> | ->]]; unfold bind at 1; rewrite Hco; cbv beta iota; cbn [compound_src];
      unfold bind at 1; unfold bind at 1; unfold need_numeric; rewrite Et; cbn [is_numeric ty_h vt_void vt_ext negb andb];
      unfold ret at 1; unfold ret at 1; cbn [fx cfg_fx fx_compound_conv all_fixes pv_ty];
      unfold bind at 1; unfold bind at 1; unfold ty_eq; cbn [is_numeric ty_h vt_void vt_ext negb andb]; unfold ret at 1;
      rewrite vtype_eqb_refl; unfold ret at 1;
      unfold bitop_il_exec; cbn [String.eqb Ascii.eqb Bool.eqb bop] in *; apply asg_finish; assumption.
    - intros ms ilv old res Sv [Hn | (vd & Sd & ->)] Hres; [destruct Ha as [-> | [-> | ->]]; discriminate Hn|].
      destruct (sem_int rw R rem ms dest vd sg w Td Sd) as (v0 & -> & Hv0 & Ed).
      rewrite (cval_of_ity _ _ _ v0 Td) in Hres.
      destruct (Hc1 ms ilv Sv) as (z1 & Hz1 & Ez1 & Cz1).
      exists (bfun a v0 z1). split; [exact (bit_fun3_range (bfun a) w v0 z1 (bfun_bit a) Hw Hv0 Hz1)|]. split.
      + cbn [pv_term fin_pure eval]. unfold rd. rewrite Ed, Ez1, N.eqb_refl. destruct Ha as [-> | [-> | ->]]; reflexivity.
      + assert (Er : res = c_bitop (bfun a) ((sg, w), v0) (cval_of (pv_ty pv) ilv))
          by (destruct Ha as [-> | [-> | ->]]; injection Hres as <-; reflexivity).
        rewrite Er, bit_compound_value; [| exact Hw | apply wfc_cval_of; [exact G2 | apply Sv] | apply bfun_bit | exact Hv0].
        rewrite Cz1. reflexivity.
  Qed.

  Lemma rhs_ok a dest pv sg w : asg_ok a -> okw w -> goodpv dest -> ity (pv_ty dest) sg w -> goodpv pv -> rhs_spec a dest pv sg w.
  Proof. intros [-> | [H | [H | H]]]; auto using rhs_plain, rhs_ring, rhs_shift, rhs_bit. Qed.

  (* the old value of an operand that is also read (x += e) comes from the expression theorem for the operand itself:
     as an expression and as a destination it is lowered by the same call of lower_operand *)
  Lemma read_back V Vl o st dest st1 : pfrag rw IM V (EOp o) -> vext V Vl -> lst_ok IM Vl st ->
    lower_operand cfg o st = OK (IPure dest, st1) ->
    forall st3, st_ext st1 st3 -> regs_le (st_regs st3) R -> norem rem -> incl (st_imms st3) J ->
    forall cs ms, rel IM E V cs ms -> imms_done IM E J cs ms ->
      exists vd, sem rw R rem ms dest vd /\
        forall lv old, operand_lval E xi cs o = Some lv -> read_lval E cs lv = Some old -> old = cval_of (pv_ty dest) vd.
  Proof.
    intros Hf Hext Hok L. destruct (expr_sim_ext V Vl (EOp o) st Hf Hext Hok) as (pv & st2 & L2 & _ & _ & _ & Hsem).
    rewrite lower_expr_op, L in L2. injection L2 as <- <-.
    intros st3 X3 HR Hrem HJ cs ms Hrel Himm. destruct (Hsem st3 X3 HR Hrem HJ cs ms Hrel Himm) as (vd & Sd & Hcv).
    exists vd. split; [exact Sd|]. intros lv old Eo Er. apply (Hcv 1%nat cs old). rewrite (ceval_op _ _ _ lv Eo), Er. reflexivity.
  Qed.

  Lemma sinv_assign D V D' V' a o sg w e : asg_ok a -> dst D V D' V' o sg w ->
    (a = AAssign \/ pfrag rw IM V (EOp o)) -> pfrag rw IM V e -> SInv D V (SExpr (EAssign a (EOp o) e)) D' V'.
  Proof.
    intros Ha [Hw Hd] Hrd Hfrag st Hext Hok _.
    destruct (Hd st Hext Hok) as (dest & st1 & wr & L1 & X1 & Hok1 & Hext' & N1 & Td & Kd & Tm & Hmk & Hrun).
    destruct (expr_sim_ext V D' e st1 Hfrag Hext' Hok1) as (pv & st2 & L2 & X2 & Hok2 & G2 & Hsem).
    destruct (rhs_ok a dest pv sg w Ha Hw (goodpv_i dest sg w Hw Td Kd Tm) Td G2 st2) as (src2 & Htail & T2 & Hval).
    destruct (Hmk src2 st2 Hok2) as (st3 & Hm & X3 & Hok3).
    assert (Htm : pv_tmps dest ++ pv_tmps src2 = []) by (rewrite Tm, T2; reflexivity).
    exists [IAsg (mkle (wr (rd src2)) (pv_tmps dest ++ pv_tmps src2) false) src2], st3.
    split.
    { rewrite lower_stmt_expr, lower_expr_casg, lower_expr_op. unfold bind. rewrite L1, L2, (Htail _ st3 Hm Htm). reflexivity. }
    assert (X13 : st_ext st1 st3) by (eapply st_ext_trans; eassumption).
    split; [|intros Hst; exact (st_ext_nonempty _ _ X13 (N1 Hst))].
    split; [exact Hok3|]. split; [eapply st_ext_trans; eassumption|].
    split; [repeat constructor; intros _; exact Htm|].
    intros HR Hrem HJ cs ms fuel cs' Hrel Himm Hce.
    destruct (Hsem st3 X3 HR Hrem HJ cs ms (proj1 Hrel) Himm) as (ilv & Sv & Hcv).
    destruct (Hrun (regs_le_trans _ _ _ (st_ext_regs _ _ X13) HR) Hrem (incl_tran (st_ext_imms _ _ X13) HJ) cs ms Hrel Himm)
      as (lv & Eo & Hwr).
    destruct (cexec_assign_inv fuel cs a o e cs' (srel_ret _ _ _ _ _ _ Hrel) Hce)
      as (k & s1 & vr & lv' & old & res & Ee & Eo' & Hold & Hres & ->).
    destruct (Hcv k s1 vr Ee) as [-> ->]. rewrite Eo in Eo'. injection Eo' as <-.
    assert (Hvd : asg_binop_c a = None \/ exists vd, sem rw R rem ms dest vd /\ old = cval_of (pv_ty dest) vd).
    { destruct Hold as [Hn | Er]; [left; exact Hn|]. destruct Hrd as [-> | Hfo]; [left; reflexivity | right].
      destruct (read_back V D o st dest st1 Hfo Hext Hok L1 st3 X13 HR Hrem HJ cs ms (proj1 Hrel) Himm) as (vd & Sd & Hvd).
      exists vd. split; [exact Sd | exact (Hvd lv old Eo Er)]. }
    destruct (Hval ms ilv old res Sv Hvd Hres) as (z & Hz & Ez & Cz).
    destruct (Hwr (pv_term src2) z res Ez Hz Cz) as (ms' & Hrun' & Hrel' & Himm').
    exists ms'. split; [|split; assumption].
    cbn [flat_map item_effects le_empty le_term app seqn]. exact Hrun'.
  Qed.

  Lemma sinv_decl D V ts sg w x e :
    decl_ty ts sg w -> lookup x D = None -> ~ reserved IM x ->
    pfrag rw IM V e -> SInv D V (SDecl ts x (Some e)) (D ++ [(x, Some (ty_int sg w))]) (V ++ [(x, Some (ty_int sg w))]).
  Proof.
    intros Hts Hx Hnr Hfrag st Hext Hok Hp. pose proof (vext_none V D x Hext Hx) as HxV.
    destruct (not_reserved_imm IM x Hnr) as [Hxi _].
    destruct (decl_ty_ok ts sg w st Hts) as [Hdt [Hrc Hw]].
    destruct (expr_sim_ext V D e st Hfrag Hext Hok) as [pv [st2 [L2 [X2 [Hok2 [G2 Hsem]]]]]].
    assert (Hx2 : lookup x (st_vars st2) = None) by (exact (lst_ok_none IM D st2 x Hok2 Hxi (not_reserved_htmp IM x Hnr) Hx)).
    set (st3 := mkst (st_vars st2 ++ [(x, Some (ty_int sg w))]) (st_regs st2) (st_pending st2) (st_hcount st2) (st_imms st2) true (st_removed st2)).
    assert (X3 : st_ext st2 st3) by apply st_ext_vars.
    destruct (cast_imm_ok (mkpv (PVarL x) (ty_int sg w) (KVar x) []) pv st3 sg w Hw (ity_int _ _) G2) as (src2 & C2 & _ & Gs2 & Hc2).
    exists [IEff (mkle (ESetL x (rd src2)) (pv_tmps pv) false)], st3.
    split.
    { rewrite lower_stmt_decl. unfold bind. rewrite Hdt. step L2.
      unfold decl_tail, bind, ret, get. cbn [as_pure cfg_params lookup ret]. unfold ret. rewrite Hx2.
      rewrite (cast_self_ok (mkpv (PVarL x) (pv_ty pv) (KVar x) []) pv st2 G2 eq_refl). cbv beta iota.
      rewrite (proj2 (goodpv_numeric pv G2)). rewrite (set_var_fresh x _ st2 Hx2). fold st3. step C2.
      rewrite chk_nil by (right; tm0). reflexivity. }
    split.
    { split; [apply lst_ok_decl; assumption|]. split; [eapply st_ext_trans; eassumption|]. split; [pl0|].
      intros HR Hrem HJ cs ms fuel cs' Hrel Himm Hce.
      pose proof Hrel as [Hrel0 [Hloc [Hmem [Hret [Hres [Hj [Himl [Hcloc [Hvx Hht]]]]]]]]].
      destruct (Hsem st3 X3 HR Hrem HJ cs ms Hrel0 Himm) as [ilv [Sv Hcv]].
      destruct (Hc2 ms ilv Sv) as [z [Hz [Ez Cz]]].
      destruct fuel as [|k]; [rewrite cexec_0 in Hce; discriminate Hce|].
      rewrite cexec_decl in Hce by exact Hret. rewrite Hrc in Hce.
      destruct (ceval E csub xi k cs e) as [[s1 vr]|] eqn:Ee; [|discriminate Hce].
      destruct (Hcv k s1 vr Ee) as [-> ->]. injection Hce as <-. rewrite Cz.
      exists (set_local ms x (VBv w z)). split; [|split; [apply srel_decl; assumption | apply imms_done_set_local; assumption]].
      cbn [flat_map item_effects le_empty le_term app seqn fin_eff].
      eapply runs_setl; [exact Ez|]. left. exact (Hloc x HxV Hnr). }
    intros _. reflexivity.
  Qed.

  Lemma lower_stmt_decl0 ts x :
    lower_stmt cfg (SDecl ts x None) =
    (do ty <- decl_type ts;
     do s0 <- get;
     do _ <- (match lookup x (cfg_params cfg) with Some _ => fail "already defined as parameter" | None => ret tt end);
     do _ <- (if existsb (fun p => String.eqb (fst p) x) (st_vars s0) then ret tt else set_var x (Some ty));
     do _ <- touch;
     do r <- chk_hybrid_dep empty_eff false false; ret [IEff r]).
  Proof. reflexivity. Qed.
  Lemma cexec_decl0 k s t x : cs_ret s = None ->
    cexec E csub xi (S k) s (SDecl t x None) =
    match resolve_ty_c t with
    | Some ty => Some (mkcs ((x, (ty, None)) :: cs_vars s) (cs_regw s) (cs_mem s) (cs_jump s) (cs_ret s) (cs_events s))
    | None => None end.
  Proof. intros H. cbn [cexec]. rewrite H. reflexivity. Qed.

  Lemma sinv_decl0 D V ts sg w x :
    decl_ty ts sg w -> lookup x D = None -> ~ reserved IM x ->
    SInv D V (SDecl ts x None) (D ++ [(x, Some (ty_int sg w))]) V.
  Proof.
    intros Hts Hx Hnr st Hext Hok Hp.
    destruct (not_reserved_imm IM x Hnr) as [Hxi _].
    destruct (decl_ty_ok ts sg w st Hts) as [Hdt [Hrc Hw]].
    assert (Hx2 : lookup x (st_vars st) = None) by (exact (lst_ok_none IM D st x Hok Hxi (not_reserved_htmp IM x Hnr) Hx)).
    set (st3 := mkst (st_vars st ++ [(x, Some (ty_int sg w))]) (st_regs st) (st_pending st) (st_hcount st) (st_imms st) true (st_removed st)).
    exists [IEff empty_eff], st3.
    split.
    { rewrite lower_stmt_decl0. unfold bind at 1. rewrite Hdt. unfold bind at 1. unfold get. cbn [cfg_params lookup].
      unfold bind at 1. unfold ret at 1. unfold bind at 1.
      rewrite (lookup_none_existsb x _ Hx2). rewrite (set_var_fresh x _ st Hx2). fold st3.
      unfold bind at 1. rewrite touch_eq. change (touched st3) with st3.
      unfold bind. rewrite chk_nil by (right; tm0). reflexivity. }
    split; [|intros _; reflexivity].
    split; [apply lst_ok_decl; assumption|].
    split; [apply st_ext_vars|].
    split; [pl0|].
    intros HR Hrem HJ cs ms fuel cs' Hrel Himm Hce.
    destruct fuel as [|k]; [rewrite cexec_0 in Hce; discriminate Hce|].
    rewrite cexec_decl0 in Hce by (apply (srel_ret _ _ _ _ _ _ Hrel)). rewrite Hrc in Hce. injection Hce as <-.
    exists ms. split; [|split; [apply srel_decl0; assumption|]].
    2:{ revert Himm. apply imms_done_gen; [|reflexivity]. intros l _.
        destruct (not_reserved_imm IM x Hnr) as [_ Hic]. unfold cimm. cbn [cs_vars lookup]. rewrite (imm_cname_neq x l Hic). reflexivity. }
    cbn [flat_map item_effects le_empty empty_eff app seqn fin_eff]. apply runs_empty. reflexivity.
  Qed.

  Lemma touch_chk le st : le_tmps le = [] ->
    (do _ <- touch; do r <- chk_hybrid_dep le false false; ret [IEff r]) st = OK ([IEff le], touched st).
  Proof. intros H. unfold bind. rewrite touch_eq, chk_nil by (right; exact H). reflexivity. Qed.

  (* statements that emit the empty effect or NOP, and that C executes without a change of state (or not at all) *)
  Lemma sinv_skip D V s le : le = empty_eff \/ le = mkle ENop [] false ->
    (forall st, lower_stmt cfg s st = OK ([IEff le], touched st)) ->
    (forall fuel cs cs', cs_ret cs = None -> cexec E csub xi fuel cs s = Some cs' -> cs' = cs) ->
    SInv D V s D V.
  Proof.
    intros Hle Hlow Hc st Hext Hok Hp.
    exists [IEff le], (touched st). split; [apply Hlow|]. split; [|reflexivity].
    split; [apply lst_ok_touched; exact Hok|]. split; [apply st_ext_touched|].
    split; [repeat constructor; intros _; destruct Hle as [-> | ->]; reflexivity|].
    intros HR Hrem HJ cs ms fuel cs' Hrel Himm Hce.
    rewrite (Hc fuel cs cs' (srel_ret _ _ _ _ _ _ Hrel) Hce).
    exists ms. split; [|split; [exact Hrel | exact Himm]].
    destruct Hle as [-> | ->]; [apply runs_empty | apply runs_nop]; reflexivity.
  Qed.

  Lemma sinv_empty D V : SInv D V SEmpty D V.
  Proof.
    apply (sinv_skip D V SEmpty empty_eff); [left; reflexivity | |].
    - intros st. rewrite lower_stmt_empty. apply touch_chk. reflexivity.
    - intros fuel cs cs' Hret H. destruct fuel as [|k]; [rewrite cexec_0 in H; discriminate H|].
      rewrite cexec_empty in H by exact Hret. congruence.
  Qed.

  Lemma sinv_nop D V : SInv D V SNop D V.
  Proof.
    apply (sinv_skip D V SNop (mkle ENop [] false)); [right; reflexivity | |].
    - intros st. rewrite lower_stmt_nop. unfold bind. rewrite touch_eq. reflexivity.
    - intros fuel cs cs' Hret H. destruct fuel as [|k]; [rewrite cexec_0 in H; discriminate H|].
      rewrite cexec_nop in H by exact Hret. congruence.
  Qed.

  (* cancel_slot: the compiler emits NOP.  CSem gives the statement no meaning at all (cexec = None: the field
     cs_events that was meant to record it is never written), so the simulation holds vacuously on every path
     that executes it; what the theorem does give for a behaviour containing it is the lowering itself and the
     simulation of all the paths that do NOT reach the cancel_slot. *)
  Lemma lower_stmt_cancel : lower_stmt cfg SCancel = (do _ <- touch; do r <- chk_hybrid_dep (mkle ENop [] false) false false; ret [IEff r]).
  Proof. reflexivity. Qed.
  Lemma cexec_cancel fuel s : cexec E csub xi fuel s SCancel = match fuel with O => None | S _ => match cs_ret s with Some _ => Some s | None => None end end.
  Proof. destruct fuel; reflexivity. Qed.
  Lemma sinv_cancel D V : SInv D V SCancel D V.
  Proof.
    apply (sinv_skip D V SCancel (mkle ENop [] false)); [right; reflexivity | |].
    - intros st. rewrite lower_stmt_cancel. apply touch_chk. reflexivity.
    - intros fuel cs cs' Hret H. rewrite cexec_cancel, Hret in H. destruct fuel; discriminate H.
  Qed.

  Lemma sinv_block_nil D V : SInv D V (SBlock SNil) D V.
  Proof.
    apply (sinv_skip D V (SBlock SNil) empty_eff); [left; reflexivity | |].
    - intros st. rewrite lower_stmt_block_nil. apply touch_chk. reflexivity.
    - intros fuel cs cs' Hret H. destruct fuel as [|k]; [rewrite cexec_0 in H; discriminate H|].
      rewrite cexec_block in H by exact Hret.
      destruct k as [|k]; [rewrite cexecs_0 in H; discriminate H|]. rewrite cexecs_nil in H. congruence.
  Qed.

  Definition store_tail (sg : bool) (w : N) (items : list item) : M (list item) :=
    match items with
    | [iva; IPure data] =>
        do va0 <- as_pure "mem_store address" iva; do va <- addr_of cfg va0;
        do eq <- ty_eq (ty_tok sg w) (pv_ty data);
        do d <- (if eq then ret data else init_a_cast cfg (ty_tok sg w) data);
        do _ <- touch;
        do r <- chk_hybrid_dep (mkle (EStore (rd va) (rd d)) (pv_tmps va ++ pv_tmps d) false) false false;
        ret [IEff r]
    | _ => fail "mem_store arguments"
    end.
  Lemma lower_stmt_store sg w args :
    lower_stmt cfg (SStore sg w args) = (do items <- lower_exprs cfg args; store_tail sg w items).
  Proof. reflexivity. Qed.
  Lemma lower_exprs_two a v :
    lower_exprs cfg (ECons a (ECons v ENil)) =
    (do i <- lower_expr cfg a; do r <- (do i2 <- lower_expr cfg v; do r2 <- ret []; ret (i2 :: r2)); ret (i :: r)).
  Proof. reflexivity. Qed.
  Lemma cexec_store k s sg w a v : cs_ret s = None ->
    cexec E csub xi (S k) s (SStore sg w (ECons a (ECons v ENil))) =
    match ceval E csub xi k s a with
    | Some (s1, va) => match ceval E csub xi k s1 v with
                       | Some (s2, vv) => Some (c_store s2 (snd (conv (false, 32%N) va)) (snd (conv (sg, w) vv)) (N.to_nat (w / 8)))
                       | None => None end
    | None => None end.
  Proof. intros H. cbn [cexec]. rewrite H. reflexivity. Qed.

  (* the stored value: converted to the operation type (a Token-width type in the compiler) *)
  Lemma tok_cast_ok sg w p st : goodpv p ->
    exists p', (do eq <- ty_eq (ty_tok sg w) (pv_ty p); if eq then ret p else init_a_cast cfg (ty_tok sg w) p) st = OK (p', st) /\
      pv_tmps p' = [] /\ conv_to sg w p p'.
  Proof.
    intros Hp.
    assert (Hne : vtype_eqb (ty_tok sg w) (pv_ty p) = false)
      by (destruct Hp as [[-> _] | (s0 & w0 & _ & Ht & _)]; [reflexivity | rewrite Ht; reflexivity]).
    unfold bind, ty_eq. rewrite (proj1 (goodpv_numeric p Hp)), Hne. cbn [is_numeric ty_tok vt_void vt_ext negb andb ret].
    destruct (init_a_cast_ne subsigs macs cret hstart rw R rem (ty_tok sg w) p st eq_refl Hp Hne) as (p' & H1 & _ & _ & Tm & Hc).
    exists p'. split; [exact H1|]. split; [exact Tm | exact Hc].
  Qed.

  Lemma srel_store D V cs ms a v n : srel IM E D V cs ms -> srel IM E D V (c_store cs a v n) (set_mem ms (write_bytes (mem ms) a v n)).
  Proof.
    intros [H1 [H2 [H3 [H4 [H5 [H6 [H7 [H8 [H9 H10]]]]]]]]]. split; [|split; [exact H2|]].
    - destruct H1 as [R1 [R2 [R3 [R4 [R5 [R6 [R7 R8]]]]]]]. unfold rel.
      cbn [c_store cs_vars cs_regw cs_mem locals rnew rold rnew0 imms mem mem0 set_mem]. rewrite R7. auto 10.
    - cbn [c_store cs_mem mem set_mem cs_ret]. rewrite H3. auto 10.
  Qed.

  Lemma runs_store a v ms w1 x w y : eval rw ms [] a = Some (VBv w1 x) -> eval rw ms [] v = Some (VBv w y) ->
    runs rw ilsubs (EStore a v) ms (set_mem ms (write_bytes (mem ms) x y (N.to_nat (w / 8)))).
  Proof. intros Ha Hv. exists 1%nat. cbn [exec]. rewrite Ha, Hv. reflexivity. Qed.

  Lemma sinv_store D V sg w a v : pfrag rw IM V a -> pfrag rw IM V v -> SInv D V (SStore sg w (ECons a (ECons v ENil))) D V.
  Proof.
    intros Hfa Hfv st Hext Hok Hp.
    destruct (expr_sim_ext V D a st Hfa Hext Hok) as [pa [st1 [L1 [X1 [Hok1 [G1 Hsema]]]]]].
    destruct (expr_sim_ext V D v st1 Hfv Hext Hok1) as [pd [st2 [L2 [X2 [Hok2 [G2 Hsemv]]]]]].
    destruct (addr_ok subsigs macs cret hstart rw R rem pa st2 G1) as [va [A1 [At A2]]].
    destruct (tok_cast_ok sg w pd st2 G2) as [d [D1 [Dt D2]]].
    exists [IEff (mkle (EStore (rd va) (rd d)) (pv_tmps va ++ pv_tmps d) false)], (touched st2).
    split.
    { rewrite lower_stmt_store, lower_exprs_two. unfold bind at 1. unfold bind at 1. rewrite L1.
      unfold bind at 1. unfold bind at 1. rewrite L2. unfold bind at 1. unfold ret at 1 2 3. cbv beta iota.
      unfold store_tail. cbn [as_pure]. unfold bind at 1. unfold ret at 1. unfold bind at 1. rewrite A1.
      erewrite bind_bind_OK by exact D1. unfold bind. rewrite touch_eq.
      rewrite chk_nil by (right; tm0). reflexivity. }
    split; [|reflexivity].
    split; [apply lst_ok_touched; exact Hok2|].
    split; [eapply st_ext_trans; [exact X1|]; eapply st_ext_trans; [exact X2 | apply st_ext_touched]|].
    split; [pl0|].
    intros HR Hrem HJ cs ms fuel cs' Hrel Himm Hce.
    pose proof Hrel as [Hrel0 [_ [Hmem [Hret _]]]].
    destruct (Hsema (touched st2) (st_ext_trans _ _ _ X2 (st_ext_touched st2)) HR Hrem HJ cs ms Hrel0 Himm) as [ila [Sa Hca]].
    destruct (Hsemv (touched st2) (st_ext_touched st2) HR Hrem HJ cs ms Hrel0 Himm) as [ilv [Sv Hcv]].
    destruct (A2 ms ila Sa) as [w1 [x [Ea Cx]]]. destruct (D2 ms ilv Sv) as [y [Hy [Ey Cy]]].
    destruct fuel as [|k]; [rewrite cexec_0 in Hce; discriminate Hce|].
    rewrite cexec_store in Hce by exact Hret.
    destruct (ceval E csub xi k cs a) as [[s1 cva]|] eqn:Eca; [|discriminate Hce].
    destruct (Hca k s1 cva Eca) as [-> ->].
    destruct (ceval E csub xi k cs v) as [[s2 cvv]|] eqn:Ecv; [|discriminate Hce].
    destruct (Hcv k s2 cvv Ecv) as [-> ->]. rewrite Cx, Cy in Hce. cbn [snd] in Hce.
    assert (Hcs : c_store cs x y (N.to_nat (w / 8)) = cs') by congruence. rewrite <- Hcs.
    exists (set_mem ms (write_bytes (mem ms) x y (N.to_nat (w / 8)))).
    split; [|split; [apply srel_store; exact Hrel | apply imms_done_set_mem; exact Himm]].
    cbn [flat_map item_effects le_empty le_term app seqn fin_eff].
    eapply runs_store; eassumption.
  Qed.

  (* The compiler emits the plugin effect HEX_STORE_SLOT_CANCELLED(pkt, hi->slot) (a void hybrid, whatever the two
     arguments are).  CSem gives a call to a routine without body no meaning (ceval = None): as for cancel_slot the
     simulation holds vacuously on the paths that execute the call; the theorem gives the lowering and the simulation of
     the other paths. *)
  Lemma carg_low D V e st : carg rw IM D V e -> vext V D -> lst_ok IM D st ->
    exists i st', lower_expr cfg e st = OK (i, st') /\ st_ext st st' /\ lst_ok IM D st' /\ item_tmps i = [].
  Proof.
    intros [x [Hx [Hi [Hn Hh]]] | e0 Hf] Hext Hok.
    - exists (IStr x), st. split; [|split; [apply st_ext_refl | split; [exact Hok | reflexivity]]].
      rewrite lower_expr_op. cbn [lower_operand cfg_params lookup]. unfold bind, get.
      rewrite (lst_ok_none IM D st x Hok Hi Hh Hx).
      assert (He : existsb (String.eqb x) ["EA"; "i"; "k"; "j"] = false).
      { cbn [existsb]. rewrite !orb_false_r. unfold implicit_name in Hn.
        destruct (String.eqb_spec x "EA"); [tauto|]. destruct (String.eqb_spec x "i"); [tauto|].
        destruct (String.eqb_spec x "k"); [tauto|]. destruct (String.eqb_spec x "j"); [tauto|]. reflexivity. }
      rewrite He. reflexivity.
    - destruct (expr_sim_ext V D e0 st Hf Hext Hok) as [pv [st2 [L2 [X2 [Hok2 [G2 _]]]]]].
      exists (IPure pv), st2. repeat (split; [assumption|]). exact (goodpv_tmps pv G2).
  Qed.

  Lemma lower_expr_ssc args st ia ib st' : lower_exprs cfg args st = OK ([ia; ib], st') ->
    lower_expr cfg (Ast.ECall ssc_name args) st =
    OK (IVoid (mkle (EPlugin "HEX_STORE_SLOT_CANCELLED" [ARaw "pkt"; ARaw "hi->slot"]) (flat_map item_tmps [ia; ib]) false), touched st').
  Proof.
    intros H. cbn [lower_expr].
    match goal with |- bind ?m _ _ = _ => change m with (lower_exprs cfg args) end.
    unfold bind at 1. rewrite H.
    change (String.eqb ssc_name "fatal") with false. change (String.eqb ssc_name "MEM_STORE0") with false. cbv iota.
    unfold find_sub. cbn [cfg_subs]. rewrite (Hssc ssc_name ssc_ext).
    change (String.eqb ssc_name "sizeof") with false. change (String.eqb ssc_name "STORE_SLOT_CANCELLED") with true. cbv iota.
    unfold bind at 1. rewrite touch_eq. reflexivity.
  Qed.

  Lemma cexec_ssc fuel cs args cs' : cs_ret cs = None -> cexec E csub xi fuel cs (SExpr (Ast.ECall ssc_name args)) = Some cs' -> False.
  Proof.
    intros Hr H. destruct fuel as [|[|k]]; [rewrite cexec_0 in H; discriminate H| |]; rewrite cexec_expr in H by exact Hr.
    - rewrite ceval_0 in H. discriminate H.
    - cbn [ceval] in H. rewrite (Hcssc ssc_name ssc_ext) in H. discriminate H.
  Qed.

  Lemma sinv_ssc D V a b : carg rw IM D V a -> carg rw IM D V b ->
    SInv D V (SExpr (Ast.ECall ssc_name (ECons a (ECons b ENil)))) D V.
  Proof.
    intros Ha Hb st Hext Hok Hp.
    destruct (carg_low D V a st Ha Hext Hok) as [ia [st1 [L1 [X1 [Hok1 Ta]]]]].
    destruct (carg_low D V b st1 Hb Hext Hok1) as [ib [st2 [L2 [X2 [Hok2 Tb]]]]].
    eexists _, (touched st2).
    split.
    { rewrite lower_stmt_expr. unfold bind at 1.
      rewrite (lower_expr_ssc _ st ia ib st2); [reflexivity|].
      rewrite lower_exprs_two. unfold bind at 1. rewrite L1. unfold bind at 1. unfold bind at 1. rewrite L2. reflexivity. }
    split; [|reflexivity].
    split; [apply lst_ok_touched; exact Hok2|].
    split; [eapply st_ext_trans; [exact X1|]; eapply st_ext_trans; [exact X2 | apply st_ext_touched]|].
    split; [repeat constructor; intros _; cbn [item_tmps le_tmps flat_map]; rewrite Ta, Tb; reflexivity|].
    intros HR Hrem HJ cs ms fuel cs' Hrel Himm Hce. exfalso.
    exact (cexec_ssc fuel cs _ cs' (srel_ret _ _ _ _ _ _ Hrel) Hce).
  Qed.

  Definition jump_tail (ie : item) : M (list item) :=
    do ta <- as_pure "jump target" ie;
    do _ <- need_numeric (pv_ty ta);
    do ta' <- (if (vt_w (pv_ty ta) =? 32)%N && negb (vt_tok (pv_ty ta)) then ret ta else init_a_cast cfg (ty_int false 32) ta);
    do _ <- touch;
    do r <- chk_hybrid_dep (mkle (ESeq (ESetL "jump_flag" (PBool true)) (ESetL "jump_target" (rd ta'))) (pv_tmps ta') false) false false;
    ret [IEff r].
  Lemma lower_stmt_jump e : lower_stmt cfg (SJump e) = (do ie <- lower_expr cfg e; jump_tail ie).
  Proof. reflexivity. Qed.
  Lemma cexec_jump k s e : cs_ret s = None ->
    cexec E csub xi (S k) s (SJump e) =
    match ceval E csub xi k s e with
    | Some (s1, v) => Some (mkcs (cs_vars s1) (cs_regw s1) (cs_mem s1) (Some (snd (conv (false, 32%N) v))) (cs_ret s1) (cs_events s1))
    | None => None end.
  Proof. intros H. cbn [cexec]. rewrite H. reflexivity. Qed.

  Lemma jump_cast_ok p st : goodpv p ->
    exists p', (if (vt_w (pv_ty p) =? 32)%N && negb (vt_tok (pv_ty p)) then ret p else init_a_cast cfg (ty_int false 32) p) st = OK (p', st) /\
      pv_tmps p' = [] /\ conv_to false 32 p p'.
  Proof.
    intros Hg.
    assert (Hcast : exists p', init_a_cast cfg (ty_int false 32) p st = OK (p', st) /\ pv_tmps p' = [] /\ conv_to false 32 p p').
    { destruct (conv_to_cast subsigs macs cret hstart rw R rem (ty_int false 32) false 32 p st okw32 (ity_int _ _) Hg) as (p2 & H1 & _ & G2 & H).
      exists p2. split; [exact H1|]. split; [exact (goodpv_tmps p2 G2) | exact H]. }
    pose proof Hg as [[Ht _] | (s0 & w0 & Hw0 & Ht & _)].
    - rewrite Ht. exact Hcast.
    - destruct (ity_inv _ _ _ Ht) as [h0 Et]. rewrite Et. cbn [vt_w vt_tok ty_h negb]. rewrite andb_true_r.
      destruct (N.eqb_spec w0 32) as [->|_]; [|exact Hcast].
      exists p. split; [reflexivity|]. split; [exact (goodpv_tmps p Hg) | exact (conv_to_same rw R rem false s0 32 p Ht)].
  Qed.

  Lemma rel_jump_flag V cs ms v : (forall x, reserved IM x -> lookup x V = None) -> rel IM E V cs ms ->
    rel IM E V cs (set_local ms "jump_flag" v).
  Proof.
    intros Hres [R1 [R2 [R3 [R4 [R5 R6]]]]]. unfold rel. cbn [locals rnew rold rnew0 imms set_local].
    split; [|auto 10].
    intros y sg w Hy Hw. cbn [lookup].
    destruct (String.eqb_spec y "jump_flag") as [->|_]; [rewrite Hres in Hy by (left; reflexivity); discriminate Hy|].
    exact (R1 y sg w Hy Hw).
  Qed.

  Lemma srel_jump D V cs ms z : srel IM E D V cs ms -> 0 <= z < pow2 32 ->
    srel IM E D V (mkcs (cs_vars cs) (cs_regw cs) (cs_mem cs) (Some z) (cs_ret cs) (cs_events cs))
           (set_local (set_local ms "jump_flag" (VB true)) "jump_target" (VBv 32 z)).
  Proof.
    intros [[R1 [R2 [R3 [R4 [R5 R6]]]]] [H2 [H3 [H4 [H5 [H6 [H7 [H8 [H9 H10]]]]]]]]] Hz. split; [|split].
    - unfold rel. cbn [cs_vars cs_regw locals rnew rold rnew0 imms set_local]. split; [|auto 10].
      intros y sg w Hy Hw. cbn [lookup]. apply H9 in Hy as HyD.
      destruct (String.eqb_spec y "jump_target") as [->|_]; [rewrite H5 in HyD by (right; left; reflexivity); discriminate HyD|].
      destruct (String.eqb_spec y "jump_flag") as [->|_]; [rewrite H5 in HyD by (left; reflexivity); discriminate HyD|].
      exact (R1 y sg w Hy Hw).
    - intros y Hy Hyr. cbn [locals set_local lookup].
      destruct (String.eqb_spec y "jump_target") as [->|_]; [exfalso; apply Hyr; right; left; reflexivity|].
      destruct (String.eqb_spec y "jump_flag") as [->|_]; [exfalso; apply Hyr; left; reflexivity|].
      exact (H2 y Hy Hyr).
    - cbn [cs_mem mem set_local cs_ret]. repeat (split; [assumption|]).
      split; [unfold jrel; cbn [cs_jump locals set_local]; repeat split; try reflexivity; apply Hz|].
      split; [|split; [exact H8 | split; [exact H9 | apply htmp_ok_set_local; [reflexivity|]; apply htmp_ok_set_local; [reflexivity | exact H10]]]].
      intros l Hl. cbn [locals set_local lookup imms].
      destruct (String.eqb_spec l "jump_target") as [->|_]; [rewrite (proj1 (proj2 HIM)) in Hl; discriminate Hl|].
      destruct (String.eqb_spec l "jump_flag") as [->|_]; [rewrite (proj1 HIM) in Hl; discriminate Hl|].
      exact (H7 l Hl).
  Qed.

  Lemma sinv_jump D V e : pfrag rw IM V e -> SInv D V (SJump e) D V.
  Proof.
    intros Hfrag st Hext Hok Hp.
    destruct (expr_sim_ext V D e st Hfrag Hext Hok) as [pv [st2 [L2 [X2 [Hok2 [G2 Hsem]]]]]].
    destruct (jump_cast_ok pv st2 G2) as [ta [J1 [Jt J2]]].
    exists [IEff (mkle (ESeq (ESetL "jump_flag" (PBool true)) (ESetL "jump_target" (rd ta))) (pv_tmps ta) false)], (touched st2).
    split.
    { rewrite lower_stmt_jump. unfold bind at 1. rewrite L2. unfold jump_tail. cbn [as_pure].
      unfold bind at 1. unfold ret at 1. unfold bind at 1. unfold need_numeric.
      rewrite (proj1 (goodpv_numeric pv G2)). unfold ret at 1. unfold bind at 1. rewrite J1.
      unfold bind. rewrite touch_eq. rewrite chk_nil by (right; tm0). reflexivity. }
    split; [|reflexivity].
    split; [apply lst_ok_touched; exact Hok2|].
    split; [eapply st_ext_trans; [exact X2 | apply st_ext_touched]|].
    split; [pl0|].
    intros HR Hrem HJ cs ms fuel cs' Hrel Himm Hce.
    pose proof Hrel as [Hrel0 [_ [_ [Hret [Hres [Hj _]]]]]].
    (* the target is evaluated after jump_flag was set: it does not depend on it *)
    set (ms1 := set_local ms "jump_flag" (VB true)).
    assert (Hrel1 : rel IM E V cs ms1).
    { apply rel_jump_flag; [|exact Hrel0]. intros y Hy. apply (vext_none V D y (srel_vext _ _ _ _ _ _ Hrel)). exact (Hres y Hy). }
    assert (Himm1 : imms_done IM E J cs ms1) by (apply (imms_done_il_local IM E J cs cs ms); [exact (proj1 HIM) | reflexivity | exact Himm]).
    destruct (Hsem (touched st2) (st_ext_touched st2) HR Hrem HJ cs ms1 Hrel1 Himm1) as [ilv [Sv Hcv]].
    destruct (J2 ms1 ilv Sv) as [z [Hz [Ez Cz]]].
    destruct fuel as [|k]; [rewrite cexec_0 in Hce; discriminate Hce|].
    rewrite cexec_jump in Hce by exact Hret.
    destruct (ceval E csub xi k cs e) as [[s1 vr]|] eqn:Ee; [|discriminate Hce].
    destruct (Hcv k s1 vr Ee) as [-> ->]. rewrite Cz in Hce. cbn [snd] in Hce.
    assert (Hcs : mkcs (cs_vars cs) (cs_regw cs) (cs_mem cs) (Some z) (cs_ret cs) (cs_events cs) = cs') by congruence.
    rewrite <- Hcs.
    exists (set_local ms1 "jump_target" (VBv 32 z)).
    split; [|split; [apply srel_jump; assumption | apply (imms_done_il_local IM E J cs _ ms1); [exact (proj1 (proj2 HIM)) | reflexivity | exact Himm1]]].
    cbn [flat_map item_effects le_empty le_term app seqn fin_eff fin_pure].
    apply runs_seq. exists ms1. split.
    - apply runs_setl; [reflexivity|]. unfold jrel in Hj. destruct (cs_jump cs) as [t|].
      + right. exists (VB true). split; [apply Hj | reflexivity].
      + left. apply Hj.
    - apply runs_setl; [exact Ez|]. unfold ms1. cbn [locals set_local lookup].
      change (String.eqb "jump_target" "jump_flag") with false. cbv iota.
      unfold jrel in Hj. destruct (cs_jump cs) as [t|].
      + right. exists (VBv 32 t). split; [apply Hj | reflexivity].
      + left. apply Hj.
  Qed.

  (* the statement emits nothing; it registers the immediate (variable + prologue entry) when it is its first use *)
  Lemma lower_imm_nonempty l st pv st2 : lower_expr cfg (EOp (OImm l)) st = OK (IPure pv, st2) -> started st -> st_nonempty st2 = true.
  Proof.
    cbn [lower_expr lower_operand]. unfold bind, get. intros H Hs.
    destruct (lookup l (st_vars st)) as [[t|]|] eqn:El.
    - injection H as _ <-. destruct Hs as [Hs | [Hv _]]; [exact Hs|]. rewrite Hv in El. discriminate El.
    - discriminate H.
    - unfold put, ret in H. injection H as _ <-. reflexivity.
  Qed.

  Lemma sinv_expr_imm D V l : IM l = true -> SInv D V (SExpr (EOp (OImm l))) D V.
  Proof.
    intros Hl st Hext Hok Hp.
    destruct (expr_sim_ext V D (EOp (OImm l)) st (pf_imm rw IM V l Hl) Hext Hok) as [pv [st2 [L2 [X2 [Hok2 [G2 Hsem]]]]]].
    exists [IPure pv], st2.
    split. { rewrite lower_stmt_expr. unfold bind. rewrite L2. reflexivity. }
    split; [|exact (lower_imm_nonempty l st pv st2 L2)].
    split; [exact Hok2|]. split; [exact X2|].
    split. { constructor; [|constructor]. split; [exact I|]. intros _. cbn [item_tmps]. exact (goodpv_tmps pv G2). }
    intros HR Hrem HJ cs ms fuel cs' Hrel Himm Hce.
    pose proof Hrel as [Hrel0 [_ [_ [Hret _]]]].
    destruct (Hsem st2 (st_ext_refl st2) HR Hrem HJ cs ms Hrel0 Himm) as [ilv [Sv Hcv]].
    destruct fuel as [|k]; [rewrite cexec_0 in Hce; discriminate Hce|].
    rewrite cexec_expr in Hce by exact Hret.
    destruct (ceval E csub xi k cs (EOp (OImm l))) as [[s1 vr]|] eqn:Ee; [|discriminate Hce].
    destruct (Hcv k s1 vr Ee) as [-> _]. cbn [option_map fst] in Hce. injection Hce as <-.
    exists ms. split; [|split; [exact Hrel | exact Himm]].
    cbn [flat_map item_effects app seqn fin_eff]. apply runs_empty. reflexivity.
  Qed.

  Lemma post_cex D V D' V' nl st st' items (cex cex' : nat -> cstate -> option cstate) :
    (forall fuel cs cs', cex' fuel cs = Some cs' -> exists fuel', cex fuel' cs = Some cs') ->
    post D V D' V' nl st st' items cex -> post D V D' V' nl st st' items cex'.
  Proof.
    intros Hc [H1 [H2 [H3 H6]]]. repeat (split; [assumption|]).
    intros HR Hrem HJ cs ms fuel cs' Hrel Himm Hce. destruct (Hc fuel cs cs' Hce) as [fuel' Hce'].
    exact (H6 HR Hrem HJ cs ms fuel' cs' Hrel Himm Hce').
  Qed.

  Lemma ssinv_nil D V : SsInv D V SNil D V.
  Proof.
    intros st Hext Hok Hp. exists [], st. split; [reflexivity|]. split; [|intros _ H; congruence].
    split; [exact Hok|]. split; [apply st_ext_refl|]. split; [constructor|].
    intros HR Hrem HJ cs ms fuel cs' Hrel Himm Hce.
    destruct fuel as [|k]; [rewrite cexecs_0 in Hce; discriminate Hce|]. rewrite cexecs_nil in Hce. injection Hce as <-.
    exists ms. split; [|split; [exact Hrel | exact Himm]]. cbn [flat_map seqn fin_eff]. apply runs_empty. reflexivity.
  Qed.

  Lemma ssinv_cons D V s D1 V1 l D2 V2 : (vext V D -> vext V1 D1) ->
    SInv D V s D1 V1 -> SsInv D1 V1 l D2 V2 -> SsInv D V (SCons s l) D2 V2.
  Proof.
    intros Hv1 IH1 IH2 st Hext Hok Hp. cbn [noloops] in *.
    assert (Hp0 : st_pending st = [] \/ noloop s = true).
    { destruct Hp as [Hp | Hp]; [left; exact Hp | right; apply andb_prop in Hp; tauto]. }
    destruct (IH1 st Hext Hok Hp0) as [a [st1 [L1 [[Hok1 [X1 [Pl1 S1]]] N1]]]].
    assert (P1 : st_pending st1 = [] \/ noloops l = true).
    { destruct Hp as [Hp | Hp]; [left; eapply st_ext_pending; eassumption | right; apply andb_prop in Hp; tauto]. }
    destruct (IH2 st1 (Hv1 Hext) Hok1 P1) as [b [st2 [L2 [[Hok2 [X2 [Pl2 S2]]] N2]]]].
    exists (a ++ b), st2.
    split. { rewrite lower_stmts_cons. unfold bind. rewrite L1, L2. reflexivity. }
    split.
    { split; [exact Hok2|]. split; [eapply st_ext_trans; eauto|].
      split; [apply Forall_app; split; [eapply pitem_weaken; [|exact Pl1] | eapply pitem_weaken; [|exact Pl2]];
              intros Hn; apply andb_prop in Hn; tauto|].
      intros HR Hrem HJ cs ms fuel cs' Hrel Himm Hce.
      destruct fuel as [|k]; [rewrite cexecs_0 in Hce; discriminate Hce|]. rewrite cexecs_cons in Hce.
      destruct (cexec E csub xi k cs s) as [cs1|] eqn:Ec1; [|discriminate Hce].
      destruct (S1 (regs_le_trans _ _ _ (st_ext_regs _ _ X2) HR) Hrem (incl_tran (st_ext_imms _ _ X2) HJ) cs ms k cs1 Hrel Himm Ec1)
        as [ms1 [Run1 [Rel1 Imm1]]].
      destruct (S2 HR Hrem HJ cs1 ms1 k cs' Rel1 Imm1 Hce) as [ms2 [Run2 [Rel2 Imm2]]].
      exists ms2. split; [|split; [exact Rel2 | exact Imm2]].
      rewrite flat_map_app, fin_eff_seqn, map_app. apply runs_seqn_app. exists ms1.
      rewrite <- !fin_eff_seqn. split; assumption. }
    intros Hst _. eapply st_ext_nonempty; [exact X2|]. exact (N1 Hst).
  Qed.

  Lemma sinv_block D V l D' V' : sfrags rw IM D V l D' V' -> SsInv D V l D' V' -> SInv D V (SBlock l) D' V'.
  Proof.
    destruct l as [|s t].
    - intros H _. inversion H; subst. apply sinv_block_nil.
    - intros _ IH st Hext Hok Hp. rewrite noloop_block in *. destruct (IH st Hext Hok Hp) as [items [st' [L [Post N]]]].
      exists items, st'. split; [rewrite lower_stmt_block_cons; exact L|].
      split; [|intros Hst; apply N; [exact Hst | discriminate]].
      assert (Hpost : post D V D' V' (noloops (SCons s t)) st st' items (fun fuel cs => match cs_ret cs with Some _ => None | None => cexec E csub xi fuel cs (SBlock (SCons s t)) end)).
      { eapply post_cex; [|exact Post]. intros fuel cs cs' H. cbv beta in H.
        destruct (cs_ret cs) eqn:Hret; [discriminate H|].
        destruct fuel as [|k]; [rewrite cexec_0 in H; discriminate H|]. rewrite cexec_block in H by exact Hret. eauto. }
      destruct Hpost as [H1 [H2 [H3 H6]]]. repeat (split; [assumption|]).
      intros HR Hrem HJ cs ms fuel cs' Hrel Himm Hce. apply (H6 HR Hrem HJ cs ms fuel cs' Hrel Himm).
      rewrite (srel_ret _ _ _ _ _ _ Hrel). exact Hce.
  Qed.

  Lemma mk_sequence_term items : le_term (fst (mk_sequence items)) = seqn (flat_map item_effects items).
  Proof. reflexivity. Qed.
  Lemma mk_sequence_notree items : Forall plain_item items -> snd (mk_sequence items) = false.
  Proof.
    intros H. unfold mk_sequence. cbn [snd]. induction H as [|i l Hi _ IH]; [reflexivity|].
    cbn [existsb]. rewrite IH. destruct i; try contradiction Hi; reflexivity.
  Qed.
  Lemma mk_sequence_tmps items : Forall (pitem true) items -> le_tmps (fst (mk_sequence items)) = [].
  Proof.
    intros H. unfold mk_sequence. cbn [fst le_tmps]. induction H as [|i l [Hi Ht] _ IH]; [reflexivity|].
    cbn [flat_map]. apply app_eq_nil in IH. destruct IH as [IH1 IH2]. rewrite IH1, IH2.
    specialize (Ht eq_refl). destruct i as [p | | e | e | e | |]; try contradiction Hi; cbn [item_tmps] in Ht; cbn [app item_tmps];
      rewrite ?Ht; try destruct (le_empty e); reflexivity.
  Qed.
  (* the sequence of a statement's items passes chk_hybrid_dep unchanged: nothing is pending, or (in a loop body) the
     items mention no temporary *)
  Lemma chk_seq nl items st : Forall (pitem nl) items -> st_pending st = [] \/ nl = true ->
    chk_hybrid_dep (fst (mk_sequence items)) false (snd (mk_sequence items)) st = OK (fst (mk_sequence items), st).
  Proof.
    intros H Hp. rewrite (mk_sequence_notree items (pitem_plain nl items H)). apply chk_nil.
    destruct Hp as [Hp | ->]; [left; exact Hp | right; apply mk_sequence_tmps; exact H].
  Qed.

  (* a branch's items as if_tail sequences them *)
  Lemma branch_seq nl it st : Forall (pitem nl) it -> st_pending st = [] \/ nl = true ->
    exists sq tree, mk_sequence it = (sq, tree) /\ chk_hybrid_dep sq false tree st = OK (sq, st) /\
      le_term sq = seqn (flat_map item_effects it) /\ (nl = true -> le_tmps sq = []).
  Proof.
    intros Pl Hp. pose proof (chk_seq nl it st Pl Hp) as Hchk. destruct (mk_sequence it) as [sq tree] eqn:Emk.
    exists sq, tree. split; [reflexivity|]. split; [exact Hchk|]. split; [rewrite <- mk_sequence_term, Emk; reflexivity|].
    intros ->. pose proof (mk_sequence_tmps it Pl) as H. rewrite Emk in H. exact H.
  Qed.

  (* the condition: lowered by ExprCorrect, evaluated on both sides *)
  Lemma cond_sim D V c st : pfrag rw IM V c -> vext V D -> lst_ok IM D st ->
    exists pc st1, lower_expr cfg c st = OK (IPure pc, st1) /\ st_ext st st1 /\ lst_ok IM D st1 /\ pv_tmps pc = [] /\
      forall st3, st_ext st1 st3 -> regs_le (st_regs st3) R -> norem rem -> incl (st_imms st3) J ->
      forall cs ms, rel IM E V cs ms -> imms_done IM E J cs ms ->
        exists b, eval rw ms [] (fin_pure R rem (cond_of cfg pc)) = Some (VB b) /\
          forall k s1 vc, ceval E csub xi k cs c = Some (s1, vc) -> s1 = cs /\ negb (snd vc =? 0) = b.
  Proof.
    intros Hfrag Hext Hok.
    destruct (expr_sim_ext V D c st Hfrag Hext Hok) as [pc [st1 [L1 [X1 [Hok1 [G1 Hsem]]]]]].
    exists pc, st1. split; [exact L1|]. split; [exact X1|]. split; [exact Hok1|]. split; [exact (goodpv_tmps pc G1)|].
    intros st3 X3 HR Hrem HJ cs ms Hrel Himm. destruct (Hsem st3 X3 HR Hrem HJ cs ms Hrel Himm) as [ilv [Sv Hcv]].
    exists (truth (cval_of (pv_ty pc) ilv)). split; [apply cond_ok; assumption|].
    intros k s1 vc Hce. destruct (Hcv k s1 vc Hce) as [-> ->]. split; reflexivity.
  Qed.

  Lemma pend_ext nl st st' : st_ext st st' -> st_pending st = [] \/ nl = true -> st_pending st' = [] \/ nl = true.
  Proof. intros X [H | H]; [left; eapply st_ext_pending; eassumption | right; exact H]. Qed.

  Lemma sinv_if D V c t : pfrag rw IM V c -> SInv D V t D V -> SInv D V (SIf c t None) D V.
  Proof.
    intros Hc IHt st Hext Hok Hp. cbn [noloop] in *. rewrite andb_true_r in *.
    destruct (cond_sim D V c st Hc Hext Hok) as [pc [st1 [L1 [X1 [Hok1 [Tc Hcond]]]]]].
    assert (Hp1 := pend_ext _ _ _ X1 Hp).
    destruct (IHt st1 Hext Hok1 Hp1) as [it [st2 [L2 [[Hok2 [X2 [Pl2 S2]]] N2]]]].
    assert (Hp2 : st_pending (touched st2) = [] \/ noloop t = true) by exact (pend_ext _ _ _ X2 Hp1).
    destruct (branch_seq _ it (touched st2) Pl2 Hp2) as (tseq & ttree & Emk & Hchk & Ht & Htm).
    exists [IEff (mkle (EBranch (cond_of cfg pc) (le_term tseq) EEmpty) (item_tmps (IPure pc) ++ le_tmps tseq) false)], (touched st2).
    split.
    { rewrite lower_stmt_if. unfold bind. rewrite L1, L2. unfold if_tail. rewrite Emk. unfold bind. rewrite touch_eq.
      rewrite Hchk. unfold ret. rewrite chk_nil; [reflexivity|].
      destruct Hp2 as [Hp2 | Hp2]; [left; exact Hp2 | right; cbn [le_tmps item_tmps]; rewrite Tc, (Htm Hp2); reflexivity]. }
    split; [|reflexivity].
    split; [apply lst_ok_touched; exact Hok2|].
    split; [eapply st_ext_trans; [exact X1|]; eapply st_ext_trans; [exact X2 | apply st_ext_touched]|].
    split; [repeat constructor; intros Hn; cbn [le_tmps item_tmps]; rewrite Tc, (Htm Hn); reflexivity|].
    intros HR Hrem HJ cs ms fuel cs' Hrel Himm Hce.
    destruct (Hcond (touched st2) (st_ext_trans _ _ _ X2 (st_ext_touched st2)) HR Hrem HJ cs ms (proj1 Hrel) Himm) as [b [Ec Hcb]].
    destruct fuel as [|k]; [rewrite cexec_0 in Hce; discriminate Hce|].
    rewrite cexec_if in Hce by (apply (srel_ret _ _ _ _ _ _ Hrel)).
    destruct (ceval E csub xi k cs c) as [[s1 vc]|] eqn:Ece; [|discriminate Hce].
    destruct (Hcb k s1 vc Ece) as [-> Hb]. rewrite Hb in Hce.
    cbn [flat_map item_effects le_empty le_term app seqn fin_eff].
    destruct b.
    - destruct (S2 HR Hrem HJ cs ms k cs' Hrel Himm Hce) as [ms' [Run [Rel Imm]]].
      exists ms'. split; [|split; [exact Rel | exact Imm]]. apply runs_branch_inv. left.
      split; [exact Ec | rewrite Ht; exact Run].
    - injection Hce as <-. exists ms. split; [|split; [exact Hrel | exact Himm]]. apply runs_branch_inv. right.
      split; [exact Ec | apply runs_empty; reflexivity].
  Qed.

  Lemma sinv_ifelse D V c t f V1 : pfrag rw IM V c -> SInv D V t D V1 -> SInv D V f D V1 -> SInv D V (SIf c t (Some f)) D V1.
  Proof.
    intros Hc IHt IHf st Hext Hok Hp. cbn [noloop] in *.
    assert (Hpt : st_pending st = [] \/ noloop t = true).
    { destruct Hp as [Hp | Hp]; [left; exact Hp | right; apply andb_prop in Hp; tauto]. }
    assert (Hnf : noloop t && noloop f = true -> noloop t = true /\ noloop f = true) by (intros Hn; apply andb_prop in Hn; exact Hn).
    destruct (cond_sim D V c st Hc Hext Hok) as [pc [st1 [L1 [X1 [Hok1 [Tc Hcond]]]]]].
    assert (Hp1 := pend_ext _ _ _ X1 Hpt).
    destruct (IHt st1 Hext Hok1 Hp1) as [it [st2 [L2 [[Hok2 [X2 [Pl2 S2]]] N2]]]].
    assert (Hp2 : st_pending (touched st2) = [] \/ noloop t = true) by exact (pend_ext _ _ _ X2 Hp1).
    assert (Hpf : st_pending (touched st2) = [] \/ noloop f = true).
    { destruct Hp as [Hp | Hp]; [left | right; apply andb_prop in Hp; tauto].
      change (st_pending st2 = []). eapply st_ext_pending; [exact X2|]. eapply st_ext_pending; [exact X1 | exact Hp]. }
    destruct (IHf (touched st2) Hext (lst_ok_touched IM _ _ Hok2) Hpf) as [ie [st3 [L3 [[Hok3 [X3 [Pl3 S3]]] N3]]]].
    assert (Hp3 : st_pending st3 = [] \/ noloop f = true) by exact (pend_ext _ _ _ X3 Hpf).
    assert (X23 : st_ext st2 st3) by (eapply st_ext_trans; [apply st_ext_touched | exact X3]).
    destruct (branch_seq _ it (touched st2) Pl2 Hp2) as (tseq & ttree & Emk & Hchk & Ht & Htm).
    destruct (branch_seq _ ie st3 Pl3 Hp3) as (eseq & etree & Emke & Hchke & He & Hem).
    assert (Hbr : st_pending st3 = [] \/ item_tmps (IPure pc) ++ le_tmps tseq ++ le_tmps eseq = []).
    { destruct Hp as [Hp | Hp].
      - left. eapply st_ext_pending; [exact X3|]. change (st_pending st2 = []).
        eapply st_ext_pending; [exact X2|]. eapply st_ext_pending; [exact X1 | exact Hp].
      - right. destruct (Hnf Hp) as [Hn1 Hn2]. cbn [item_tmps]. rewrite Tc, (Htm Hn1), (Hem Hn2). reflexivity. }
    exists [IEff (mkle (EBranch (cond_of cfg pc) (le_term tseq) (le_term eseq))
                       (item_tmps (IPure pc) ++ le_tmps tseq ++ le_tmps eseq) false)], st3.
    split.
    { rewrite lower_stmt_if. unfold bind. rewrite L1, L2. unfold if_tail. rewrite Emk. unfold bind. rewrite touch_eq.
      rewrite Hchk. rewrite L3. rewrite Emke. unfold bind, ret.
      rewrite Hchke. rewrite chk_nil; [reflexivity | exact Hbr]. }
    split; [|intros _; eapply st_ext_nonempty; [exact X3 | reflexivity]].
    split; [exact Hok3|].
    split; [eapply st_ext_trans; [exact X1|]; eapply st_ext_trans; [exact X2 | exact X23]|].
    split; [repeat constructor; intros Hn; destruct (Hnf Hn) as [Hn1 Hn2]; cbn [le_tmps item_tmps]; rewrite Tc, (Htm Hn1), (Hem Hn2); reflexivity|].
    intros HR Hrem HJ cs ms fuel cs' Hrel Himm Hce.
    destruct (Hcond st3 (st_ext_trans _ _ _ X2 X23) HR Hrem HJ cs ms (proj1 Hrel) Himm) as [b [Ec Hcb]].
    destruct fuel as [|k]; [rewrite cexec_0 in Hce; discriminate Hce|].
    rewrite cexec_if in Hce by (apply (srel_ret _ _ _ _ _ _ Hrel)).
    destruct (ceval E csub xi k cs c) as [[s1 vc]|] eqn:Ece; [|discriminate Hce].
    destruct (Hcb k s1 vc Ece) as [-> Hb]. rewrite Hb in Hce.
    cbn [flat_map item_effects le_empty le_term app seqn fin_eff].
    destruct b.
    - destruct (S2 (regs_le_trans _ _ _ (st_ext_regs _ _ X23) HR) Hrem (incl_tran (st_ext_imms _ _ X23) HJ) cs ms k cs' Hrel Himm Hce)
        as [ms' [Run [Rel Imm]]].
      exists ms'. split; [|split; [exact Rel | exact Imm]]. apply runs_branch_inv. left.
      split; [exact Ec | rewrite Ht; exact Run].
    - destruct (S3 HR Hrem HJ cs ms k cs' Hrel Himm Hce) as [ms' [Run [Rel Imm]]].
      exists ms'. split; [|split; [exact Rel | exact Imm]]. apply runs_branch_inv. right.
      split; [exact Ec | rewrite He; exact Run].
  Qed.

  (* Lower.set_var on the variable table *)
  Definition vars_set (x : string) (t : option vtype) (vars : list (string * option vtype)) : list (string * option vtype) :=
    if existsb (fun p => String.eqb (fst p) x) vars
    then map (fun p => if String.eqb (fst p) x then (x, t) else p) vars
    else vars ++ [(x, t)].
  Lemma set_var_eq x t st :
    set_var x t st = OK (tt, mkst (vars_set x t (st_vars st)) (st_regs st) (st_pending st) (st_hcount st) (st_imms st) true (st_removed st)).
  Proof. reflexivity. Qed.
  Lemma lookup_vars_set x t vars y : lookup y (vars_set x t vars) = if String.eqb y x then Some t else lookup y vars.
  Proof.
    unfold vars_set. destruct (existsb (fun p => String.eqb (fst p) x) vars) eqn:Ee.
    - induction vars as [|[k v] r IH]; [discriminate Ee|]. cbn [existsb fst] in Ee. cbn [map fst lookup].
      destruct (String.eqb_spec k x) as [->|Hk].
      + cbn [lookup]. destruct (String.eqb_spec y x) as [_|Hy]; [reflexivity|].
        clear IH Ee. induction r as [|[k2 v2] r2 IH2]; [reflexivity|]. cbn [map fst lookup].
        destruct (String.eqb_spec k2 x) as [->|Hk2]; cbn [lookup].
        * destruct (String.eqb_spec y x); [contradiction | exact IH2].
        * destruct (String.eqb y k2); [reflexivity | exact IH2].
      + cbn [orb] in Ee. cbn [lookup]. destruct (String.eqb_spec y k) as [->|Hyk].
        * destruct (String.eqb_spec k x); [contradiction | reflexivity].
        * exact (IH Ee).
    - rewrite lookup_app. cbn [lookup].
      assert (Hn : lookup x vars = None).
      { clear t. induction vars as [|[k v] r IH]; [reflexivity|]. cbn [existsb fst] in Ee. apply orb_false_elim in Ee.
        destruct Ee as [E1 E2]. cbn [lookup]. rewrite String.eqb_sym, E1. exact (IH E2). }
      destruct (String.eqb_spec y x) as [->|_]; [rewrite Hn; reflexivity | destruct (lookup y vars); reflexivity].
  Qed.

  (* the name of the next temporary is one of the reserved names h_tmp<n> *)
  Definition htmp_name (st : lstate) : string := "h_tmp" +++ string_of_N (st_hcount st).
  Lemma htmp_name_is st : is_htmp (htmp_name st) = true.
  Proof. unfold is_htmp, htmp_name. generalize (string_of_N (st_hcount st)). intros s. cbn [String.append substring]. destruct s; reflexivity. Qed.

  (* the pending entry of i++ / i-- on the local i *)
  Definition step_entry (name : string) (inc : bool) (i : string) : pend :=
    mkpend name [] (ESetL i (PIncDec inc (PVarL i) 32)) (ESetL name (PVarL i)) false [name].
  Definition step_state (st : lstate) (inc : bool) (i : string) (sg : bool) : lstate :=
    mkst (vars_set (htmp_name st) (Some (ty_h true sg 32)) (vars_set i (Some (ty_h true sg 32)) (st_vars st)))
         (st_regs st) [step_entry (htmp_name st) inc i] (st_hcount st + 1) (st_imms st) true (st_removed st).
  Lemma lower_expr_post inc a :
    lower_expr cfg (EPost inc a) =
    (do ia <- lower_expr cfg a;
     do p <- as_pure "postfix" ia;
     do _ <- need_numeric (pv_ty p);
     match pv_kind p with
     | KReg n =>
         do s0 <- get;
         do _ <- (match lookup_reg_info n (st_regs s0) with
                  | Some ri => put (mkst (st_vars s0) (update_reg_info n (mkreg (r_op ri) (set_hybrid_vt (r_ty ri)) (r_acc ri) (r_x ri) (r_pc ri) (r_new ri)) (st_regs s0))
                                         (st_pending s0) (st_hcount s0) (st_imms s0) (st_nonempty s0) (st_removed s0))
                  | None => ret tt end);
         resolve_hybrid (pv_ty p) (rd p) (EWriteReg (RParam ("$reg:" +++ n)) (PIncDec inc (rd p) (vt_w (pv_ty p)))) false false (pv_tmps p) false
     | KVar n | KTmp n _ =>
         do s0 <- get;
         do _ <- (match lookup n (st_vars s0) with
                  | Some (Some t) => set_var n (Some (set_hybrid_vt t))
                  | _ => ret tt end);
         resolve_hybrid (pv_ty p) (rd p) (ESetL n (PIncDec inc (rd p) (vt_w (pv_ty p)))) false false (pv_tmps p) false
     | _ => fail "No scope letter given"
     end).
  Proof. reflexivity. Qed.

  Lemma lower_step_ok inc i st h sg : lookup i (st_vars st) = Some (Some (ty_h h sg 32)) -> is_htmp i = false ->
    st_pending st = [] ->
    lower_expr cfg (EPost inc (EOp (OIdent i))) st =
    OK (IPure (mkpv (PVarL (htmp_name st)) (ty_h true sg 32) (KTmp (htmp_name st) false) [htmp_name st]), step_state st inc i sg).
  Proof.
    intros Hi Hh Hp. rewrite lower_expr_post, lower_expr_op. cbn [lower_operand cfg_params lookup].
    unfold bind at 1. unfold bind at 1. unfold get at 1. rewrite Hi. unfold ret at 1.
    unfold is_htmp in Hh. rewrite Hh.
    unfold bind at 1. cbn [as_pure]. unfold ret at 1.
    unfold bind at 1. cbn [pv_ty need_numeric is_numeric ty_h vt_void vt_ext negb andb]. unfold ret at 1.
    cbn [pv_kind]. unfold bind at 1. unfold get at 1. unfold bind at 1. rewrite Hi. rewrite set_var_eq.
    unfold resolve_hybrid. cbn [ty_h vt_void]. unfold bind at 1. unfold get at 1.
    unfold bind at 1. unfold put at 1. unfold bind at 1. rewrite set_var_eq.
    unfold bind at 1. unfold get at 1. cbn [st_pending st_vars st_regs st_hcount st_imms st_removed]. rewrite Hp.
    unfold bind at 1. unfold ret at 1. cbn [collect_deps pop_pending app flat_map map].
    unfold bind at 1. unfold put at 1. unfold ret. cbn [rd pv_term pv_tmps pv_ty vt_w ty_h set_hybrid_vt vt_sg vt_bool vt_void vt_ext vt_float vt_const vt_tok].
    reflexivity.
  Qed.

  Lemma lst_ok_step V st inc i sg h : lst_ok IM V st -> lookup i (st_vars st) = Some (Some (ty_h h sg 32)) ->
    IM i = false -> is_htmp i = false -> lst_ok IM V (step_state st inc i sg).
  Proof.
    intros [H1 [H2 [H3 [H4 H5]]]] Hi Him Hih. pose proof (htmp_name_is st) as Hn.
    assert (Hnm : IM (htmp_name st) = false) by exact (proj2 (proj2 HIM) _ Hn).
    unfold lst_ok, step_state. cbn [st_vars st_imms st_regs].
    split; [|split; [exact H2|split; [|split; [|exact H5]]]].
    - intros x Hx Hxh. rewrite !lookup_vars_set.
      destruct (String.eqb_spec x (htmp_name st)) as [->|_]; [congruence|].
      destruct (String.eqb_spec x i) as [->|_]; [|exact (H1 x Hx Hxh)].
      rewrite <- (H1 i Him Hih), Hi. cbn [option_map unhyb_o]. destruct h; reflexivity.
    - intros l Hl. rewrite !lookup_vars_set.
      destruct (String.eqb_spec l (htmp_name st)) as [->|_]; [congruence|].
      destruct (String.eqb_spec l i) as [->|_]; [congruence|]. exact (H3 l Hl).
    - eapply Forall_impl; [|exact H4]. intros e [l [Hl [He Hlk]]]. exists l. split; [exact Hl|]. split; [exact He|].
      rewrite !lookup_vars_set.
      destruct (String.eqb_spec l (htmp_name st)) as [->|_]; [congruence|].
      destruct (String.eqb_spec l i) as [->|_]; [congruence|]. exact Hlk.
  Qed.

  (* what the compiler sequences as the loop's compound: the body's effects; its leaves are the temporary of the step *)
  Lemma mk_sequence_loop ib hp : Forall (pitem true) ib ->
    mk_sequence (ib ++ [IPure hp]) =
    (mkle (seqn (flat_map item_effects ib)) (pv_tmps hp) (match flat_map item_effects ib with [] => true | _ => false end), false).
  Proof.
    intros H. pose proof (mk_sequence_tmps ib H) as T. pose proof (mk_sequence_notree ib (pitem_plain true ib H)) as N.
    unfold mk_sequence in *. cbn [fst snd le_tmps] in T, N. apply app_eq_nil in T. destruct T as [T1 T2].
    rewrite !flat_map_app, existsb_app, T1, T2, N. cbn [flat_map item_tmps existsb app orb]. rewrite !app_nil_r. reflexivity.
  Qed.

  (* CSem's loop of a for statement (the local fixpoint of CSem.cexec), and its unfolding *)
  Fixpoint cloop (k : nat) (ce step : cexpr) (b : cstmt) (n : nat) (s : cstate) : option cstate :=
    match n with O => None | S n' =>
      match cs_ret s with Some _ => Some s | None =>
        match ceval E csub xi k s ce with
        | Some (s1, vc) =>
            if snd vc =? 0 then Some s1
            else match cexec E csub xi k s1 b with
                 | Some s2 => match cs_ret s2 with
                              | Some _ => Some s2
                              | None => match ceval E csub xi k s2 step with Some (s3, _) => cloop k ce step b n' s3 | None => None end
                              end
                 | None => None end
        | None => None end end end.
  Lemma cexec_for k s i ce step b : cs_ret s = None ->
    cexec E csub xi (S k) s (SFor i (SExpr ce) (Some step) b) =
    match cexec E csub xi k s i with Some s1 => cloop k ce step b k s1 | None => None end.
  Proof.
    intros H. cbn [cexec]. rewrite H. destruct (cexec E csub xi k s i) as [s1|]; [|reflexivity].
    match goal with |- ?f0 k s1 = _ => set (f := f0) end.
    assert (Hstep : forall n s0, f (S n) s0 =
              match cs_ret s0 with Some _ => Some s0 | None =>
                match ceval E csub xi k s0 ce with
                | Some (s1, vc) =>
                    if snd vc =? 0 then Some s1
                    else match cexec E csub xi k s1 b with
                         | Some s2 => match cs_ret s2 with
                                      | Some _ => Some s2
                                      | None => match ceval E csub xi k s2 step with Some (s3, _) => f n s3 | None => None end
                                      end
                         | None => None end
                | None => None end end) by (intros; reflexivity).
    assert (Hf : forall n s0, f n s0 = cloop k ce step b n s0).
    { induction n as [|n IH]; intros s0; [reflexivity|]. rewrite Hstep. cbn [cloop].
      destruct (cs_ret s0); [reflexivity|]. destruct (ceval E csub xi k s0 ce) as [[s2 vc]|]; [|reflexivity].
      destruct (snd vc =? 0); [reflexivity|]. destruct (cexec E csub xi k s2 b) as [s3|]; [|reflexivity].
      destruct (cs_ret s3); [reflexivity|]. destruct (ceval E csub xi k s3 step) as [[s4 v4]|]; [|reflexivity]. apply IH. }
    apply Hf.
  Qed.

  (* i++ / i-- on a 32 bit local: C computes in the promoted type and converts back; the IL increments at 32 bits *)
  Lemma incdec_value (inc sg : bool) v0 : 0 <= v0 < pow2 32 ->
    conv (sg, 32%N) (c_arith (if inc then Z.add else Z.sub) ((sg, 32%N), v0) (mkval int_t 1)) =
    ((sg, 32%N), wrap 32 (if inc then v0 + 1 else v0 - 1)).
  Proof.
    intros Hv.
    assert (Hw32 : okw 32) by (right; right; left; reflexivity).
    assert (Hwf : wfc (mkval int_t 1)) by (split; [exact Hw32 | vm_compute; split; [discriminate | reflexivity]]).
    rewrite compound_value; [|exact Hw32 | exact Hwf | destruct inc; unfold ring_fun; auto].
    assert (Ep : promote (sg, 32%N) = (sg, 32%N)) by (destruct sg; reflexivity). rewrite Ep. cbn [snd].
    assert (E1 : conv (sg, 32%N) (conv (sg, 32%N) (mkval int_t 1)) = ((sg, 32%N), 1)) by (destruct sg; reflexivity).
    rewrite E1. cbn [snd].
    assert (E0 : conv (sg, 32%N) ((sg, 32%N), v0) = ((sg, 32%N), v0)).
    { rewrite <- (wrap_small 32 v0) at 1 by exact Hv. rewrite conv_trunc by lia.
      rewrite wrap_small by exact Hv. reflexivity. }
    rewrite E0. cbn [snd]. rewrite conv_trunc by lia.
    destruct inc; reflexivity.
  Qed.

  Definition for_tail (ii ic is_ ib : list item) : M (list item) :=
    do init <- (match ii with [x] => ret x | _ => fail "for init" end);
    do cnd <- (match ic with [IPure p] => ret p | _ => fail "for condition" end);
    let '(comp, ctree) := mk_sequence (ib ++ is_) in
    do _ <- touch;
    do comp' <- chk_hybrid_dep comp true ctree;
    let loop := mkle (ERepeat (cond_of cfg cnd) (le_term comp')) (pv_tmps cnd ++ le_tmps comp') false in
    let '(sq, stree) := mk_sequence [init; IEff loop] in
    do r <- chk_hybrid_dep sq false stree;
    ret [IEff r].
  Lemma lower_stmt_for i c st b :
    lower_stmt cfg (SFor i c (Some st) b) =
    (do ii <- lower_stmt cfg i; do ic <- lower_stmt cfg c; do is_ <- (do x <- lower_expr cfg st; ret [x]);
     do ib <- lower_stmt cfg b; for_tail ii ic is_ ib).
  Proof. reflexivity. Qed.

  (* the model's sequencing of a loop (the initialisation x0, the condition pc, the body's items ib, with the step's
     hybrid on i pending): the pending hybrid is put after the body *)
  Lemma for_tail_ok x0 pc ib st4 name inc i sg : plain_item x0 -> Forall (pitem true) ib ->
    st_pending st4 = [step_entry name inc i] ->
    exists sq, for_tail [x0] [IPure pc] [IPure (mkpv (PVarL name) (ty_h true sg 32) (KTmp name false) [name])] ib st4 =
               OK ([IEff sq], mkst (st_vars st4) (st_regs st4) [] (st_hcount st4) (st_imms st4) true (st_removed st4)) /\
      le_empty sq = false /\
      le_term sq = seqn (flat_map item_effects
                           [x0; IEff (mkle (ERepeat (cond_of cfg pc)
                                                    (ESeq (seqn (flat_map item_effects ib))
                                                          (ESeq (ESetL name (PVarL i)) (ESetL i (PIncDec inc (PVarL i) 32)))))
                                           (pv_tmps pc ++ [name; name]) false)]).
  Proof.
    intros Hx0 Pl4 Hp4.
    set (hp := mkpv (PVarL name) (ty_h true sg 32) (KTmp name false) [name]).
    set (st5 := mkst (st_vars st4) (st_regs st4) [] (st_hcount st4) (st_imms st4) true (st_removed st4)).
    set (beff := seqn (flat_map item_effects ib)).
    set (pe := ESeq (ESetL name (PVarL i)) (ESetL i (PIncDec inc (PVarL i) 32))).
    set (loop := mkle (ERepeat (cond_of cfg pc) (ESeq beff pe)) (pv_tmps pc ++ [name; name]) false).
    assert (Hpl : Forall (pitem false) [x0; IEff loop]) by (repeat constructor; try exact Hx0; intros Hf; discriminate Hf).
    pose proof (chk_seq false [x0; IEff loop] st5 Hpl (or_introl eq_refl)) as Hchk.
    destruct (mk_sequence [x0; IEff loop]) as [sq stree] eqn:Emk. cbn [fst snd] in Hchk.
    exists sq. split; [|split].
    - unfold for_tail. unfold bind at 1. unfold ret at 1. unfold bind at 1. unfold ret at 1.
      rewrite (mk_sequence_loop ib hp Pl4). unfold bind at 1. rewrite touch_eq.
      unfold bind at 1. unfold chk_hybrid_dep at 1. unfold bind at 1. unfold get at 1.
      cbn [touched st_pending st_vars st_regs st_hcount st_imms st_removed]. rewrite Hp4.
      cbn [le_tmps hp pv_tmps collect_deps pop_pending step_entry pd_name]. rewrite String.eqb_refl.
      unfold bind at 1. unfold put at 1. unfold ret at 1.
      unfold step_entry, pend_effect. cbn [map pd_pre pd_exec_first pd_set pd_hyb app seqn le_term flat_map pd_tmps le_tmps].
      fold beff. fold pe. fold loop. rewrite Emk. fold st5. unfold bind. rewrite Hchk. reflexivity.
    - pose proof (f_equal (fun p => le_empty (fst p)) Emk) as Q. cbn [fst] in Q. rewrite <- Q. unfold mk_sequence.
      cbn [fst le_empty flat_map loop].
      match goal with |- match ?l ++ _ with _ => _ end = _ => destruct l; reflexivity end.
    - rewrite <- mk_sequence_term, Emk. reflexivity.
  Qed.

  (* i++ / i-- on the loop variable, as the compiler emits it: h_tmp<n> := i; i := INC(i) *)
  Lemma step_sim D V i sg inc name : lookup i V = Some (Some (ty_int sg 32)) -> is_htmp name = true ->
    sim D V D V (fin_eff R rem (ESeq (ESetL name (PVarL i)) (ESetL i (PIncDec inc (PVarL i) 32))))
        (fun k cs => option_map fst (ceval E csub xi k cs (EPost inc (EOp (OIdent i))))).
  Proof.
    intros Hi Hname cs ms k cs' Rel Imm Es.
    destruct (proj1 (proj1 Rel) i sg 32%N Hi okw32) as (v0 & Hcx & Hv0 & Hmx).
    pose proof (srel_nr _ _ _ _ _ _ _ _ Rel Hi) as Hnr.
    destruct k as [|k]; [discriminate Es|].
    cbn [ceval operand_lval] in Es. rewrite Hcx in Es. cbn [read_lval] in Es. rewrite Hcx in Es.
    cbn [option_map fst write_lval] in Es.
    set (z := wrap 32 (if inc then v0 + 1 else v0 - 1)). set (msh := set_local ms name (VBv 32 v0)).
    assert (Ecs : cs' = CSem.set_var cs i ((sg, 32%N), z)) by (injection Es as <-; f_equal; exact (incdec_value inc sg v0 Hv0)).
    subst cs'. clear Es.
    assert (Relh : srel IM E D V cs msh) by (apply srel_set_htmp; assumption).
    assert (Immh : imms_done IM E J cs msh).
    { apply (imms_done_il_local IM E J cs cs ms); [exact (proj2 (proj2 HIM) _ Hname) | reflexivity | exact Imm]. }
    assert (Hmx' : lookup i (locals msh) = Some (VBv 32 v0)).
    { unfold msh. cbn [locals set_local lookup]. destruct (String.eqb_spec i name) as [Ein|_]; [|exact Hmx].
      rewrite <- Ein, (not_reserved_htmp IM i Hnr) in Hname. discriminate Hname. }
    exists (set_local msh i (VBv 32 z)).
    split; [|split; [apply srel_set_var; [exact Relh | exact Hi | apply wrap_range] | apply imms_done_set_local; assumption]].
    cbn [fin_eff fin_pure]. apply runs_seq. exists msh. split.
    - apply runs_setl; [cbn [eval]; exact Hmx|].
      destruct (proj2 (proj2 (proj2 (proj2 (proj2 (proj2 (proj2 (proj2 (proj2 Rel)))))))) name Hname) as [Hn | [vn Hn]];
        [left; exact Hn | right; exists (VBv 32 vn); split; [exact Hn | reflexivity]].
    - apply runs_setl; [cbn [eval]; rewrite Hmx', N.eqb_refl; reflexivity|].
      right. exists (VBv 32 v0). split; [exact Hmx' | reflexivity].
  Qed.

  (* the loop, by induction on the number of iterations CSem was given *)
  Lemma loop_sim D V c b step cnd beff seff k :
    (forall cs ms, rel IM E V cs ms -> imms_done IM E J cs ms ->
       exists bb, eval rw ms [] (fin_pure R rem cnd) = Some (VB bb) /\
         forall k s1 vc, ceval E csub xi k cs c = Some (s1, vc) -> s1 = cs /\ negb (snd vc =? 0) = bb) ->
    sim D V D V (fin_eff R rem beff) (fun fuel cs => cexec E csub xi fuel cs b) ->
    sim D V D V (fin_eff R rem seff) (fun k cs => option_map fst (ceval E csub xi k cs step)) ->
    sim D V D V (fin_eff R rem (ERepeat cnd (ESeq beff seff))) (cloop k c step b).
  Proof.
    intros Hcond Sb Ss csa msa n. revert csa msa.
    induction n as [|n IHn]; intros csa msa csb Rela Imma Hl; [discriminate Hl|].
    cbn [cloop] in Hl. rewrite (srel_ret _ _ _ _ _ _ Rela) in Hl.
    destruct (Hcond csa msa (proj1 Rela) Imma) as (bb & Ecn & Hcb).
    destruct (ceval E csub xi k csa c) as [[s1 vc]|] eqn:Ece; [|discriminate Hl].
    destruct (Hcb k s1 vc Ece) as [-> Hb]. cbn [fin_eff].
    destruct (snd vc =? 0) eqn:Ez; cbn [negb] in Hb; subst bb.
    - injection Hl as <-. exists msa. split; [apply runs_repeat_false; exact Ecn | split; assumption].
    - destruct (cexec E csub xi k csa b) as [cs2|] eqn:Eb; [|discriminate Hl].
      destruct (Sb csa msa k cs2 Rela Imma Eb) as (ms2 & Run2 & Rel2 & Imm2).
      rewrite (srel_ret _ _ _ _ _ _ Rel2) in Hl.
      destruct (ceval E csub xi k cs2 step) as [[cs3 v3]|] eqn:Es; [|discriminate Hl].
      destruct (Ss cs2 ms2 k cs3 Rel2 Imm2) as (ms3 & Run3 & Rel3 & Imm3); [rewrite Es; reflexivity|].
      destruct (IHn cs3 ms3 csb Rel3 Imm3 Hl) as (msb & Runb & Relb & Immb).
      exists msb. split; [|split; assumption].
      eapply runs_repeat_true; [exact Ecn | | exact Runb]. apply runs_seq. exists ms2. split; assumption.
  Qed.

  Lemma sinv_for D V e0 D1 V1 c inc i sg b :
    (vext V D -> vext V1 D1) -> SInv D V (SExpr e0) D1 V1 -> pfrag rw IM V1 c -> lookup i V1 = Some (Some (ty_int sg 32)) ->
    SInv D1 V1 b D1 V1 -> noloop b = true ->
    SInv D V (SFor (SExpr e0) (SExpr c) (Some (EPost inc (EOp (OIdent i)))) b) D1 V1.
  Proof.
    intros Hv1 IHi Hc Hi IHb Hnl st Hext Hok Hp. cbn [noloop] in Hp. destruct Hp as [Hp | Hp]; [|discriminate Hp].
    pose proof (Hv1 Hext) as Hext1.
    (* the initialisation *)
    destruct (IHi st Hext Hok (or_introl Hp)) as (ii & st1 & L1 & (Hok1 & X1 & Pl1 & S1) & N1).
    assert (Hsingle : exists x0, ii = [x0]).
    { rewrite lower_stmt_expr in L1. unfold bind in L1. destruct (lower_expr cfg e0 st) as [[x0 s0]|]; [|discriminate L1].
      injection L1 as <- _. eauto. }
    destruct Hsingle as [x0 ->].
    (* the condition *)
    destruct (cond_sim D1 V1 c st1 Hc Hext1 Hok1) as (pc & st2 & L2 & X2 & Hok2 & Tc & Hcond).
    assert (Hp2 : st_pending st2 = []) by (eapply st_ext_pending; [exact X2|]; eapply st_ext_pending; eassumption).
    (* the step: its hybrid stays pending while the body is lowered *)
    destruct (lst_ok_local IM D1 st2 i sg 32 Hok2 (Hext1 _ _ Hi)) as (Hii & Hih & ti & Hti & Hity).
    destruct (ity_inv _ _ _ Hity) as [hi Eti]. rewrite Eti in Hti.
    pose proof (lower_step_ok inc i st2 hi sg Hti Hih Hp2) as L3.
    pose proof (lst_ok_step D1 st2 inc i sg hi Hok2 Hti Hii Hih) as Hok3.
    pose proof (htmp_name_is st2) as Hname.
    set (name := htmp_name st2) in *. set (st3 := step_state st2 inc i sg) in *.
    (* the body *)
    destruct (IHb st3 Hext1 Hok3 (or_intror Hnl)) as (ib & st4 & L4 & (Hok4 & X4 & Pl4 & S4) & N4). rewrite Hnl in Pl4.
    destruct (for_tail_ok x0 pc ib st4 name inc i sg (proj1 (Forall_inv Pl1)) Pl4) as (sq & Lf & Hemp & Hsq);
      [rewrite (proj1 X4); reflexivity|].
    set (st5 := mkst (st_vars st4) (st_regs st4) [] (st_hcount st4) (st_imms st4) true (st_removed st4)) in *.
    exists [IEff sq], st5.
    split.
    { rewrite lower_stmt_for. unfold bind at 1. rewrite L1. unfold bind at 1. rewrite lower_stmt_expr. unfold bind at 1. rewrite L2.
      unfold ret at 1. unfold bind at 1. unfold bind at 1. rewrite L3. unfold ret at 1. unfold bind at 1. rewrite L4. exact Lf. }
    assert (X25 : st_ext st2 st5).
    { destruct X4 as (_ & A2 & A3 & A4 & _ & A6). unfold st_ext. split; [exact (eq_sym Hp2)|].
      split; [eapply N.le_trans; [|exact A2]; unfold st3, step_state; cbn [st_hcount]; lia|].
      split; [exact A3|]. split; [exact A4|]. split; [intros _; reflexivity | exact A6]. }
    split; [|intros _; reflexivity].
    split; [destruct Hok4 as (K1 & K2 & K3 & K4 & K5); repeat split; assumption|].
    split; [eapply st_ext_trans; [exact X1|]; eapply st_ext_trans; [exact X2 | exact X25]|].
    split; [repeat constructor; intros Hf; discriminate Hf|].
    intros HR Hrem HJ cs ms fuel cs' Hrel Himm Hce.
    destruct fuel as [|k]; [rewrite cexec_0 in Hce; discriminate Hce|].
    rewrite cexec_for in Hce by (apply (srel_ret _ _ _ _ _ _ Hrel)).
    destruct (cexec E csub xi k cs (SExpr e0)) as [cs1|] eqn:Ec1; [|discriminate Hce].
    destruct (S1 (regs_le_trans _ _ _ (st_ext_regs _ _ (st_ext_trans _ _ _ X2 X25)) HR) Hrem
                 (incl_tran (st_ext_imms _ _ (st_ext_trans _ _ _ X2 X25)) HJ) cs ms k cs1 Hrel Himm Ec1) as (ms1 & Run1 & Rel1 & Imm1).
    destruct (loop_sim D1 V1 c b _ _ _ _ k (Hcond st5 X25 HR Hrem HJ) (S4 HR Hrem HJ) (step_sim D1 V1 i sg inc name Hi Hname)
                       cs1 ms1 k cs' Rel1 Imm1 Hce) as (ms' & Run2 & Rel2 & Imm2).
    exists ms'. split; [|split; assumption].
    cbn [flat_map item_effects app]. rewrite Hemp. cbn [app seqn]. rewrite Hsq.
    change [x0; IEff ?l] with ([x0] ++ [IEff l]). rewrite flat_map_app, fin_eff_seqn, map_app. apply runs_seqn_app. exists ms1.
    rewrite <- !fin_eff_seqn. split; [exact Run1|]. cbn [flat_map item_effects le_empty le_term app seqn]. exact Run2.
  Qed.

  Theorem stmt_inv :
    (forall D V s D' V', sfrag rw IM D V s D' V' -> SInv D V s D' V') /\
    (forall D V l D' V', sfrags rw IM D V l D' V' -> SsInv D V l D' V').
  Proof.
    apply sfrag_mutind.
    - (* sf_asg_reg *) intros. eapply sinv_assign; eauto using dst_reg. left; reflexivity.
    - (* sf_asg_alias *) intros. eapply sinv_assign; eauto using dst_alias. left; reflexivity.
    - (* sf_asg_expl *) intros. eapply sinv_assign; eauto using dst_expl. left; reflexivity.
    - (* sf_asg_imm *) intros. eapply sinv_assign; eauto using dst_imm. left; reflexivity.
    - (* sf_asg_var *) intros. eapply sinv_assign; eauto using dst_var. left; reflexivity.
    - (* sf_asg_first *) intros. eapply sinv_assign; eauto using dst_first. left; reflexivity.
    - (* sf_asg_implicit *) intros. eapply sinv_assign; eauto using dst_implicit. left; reflexivity.
    - (* sf_casg_var *) intros. eapply sinv_assign; eauto using dst_var, pf_ident. right; left; assumption.
    - (* sf_basg_var *) intros. eapply sinv_assign; eauto using dst_var, pf_ident. right; right; right; assumption.
    - (* sf_basg_reg *) intros. eapply sinv_assign; eauto using dst_reg, pf_reg. right; right; right; assumption.
    - (* sf_casg_reg *) intros. eapply sinv_assign; eauto using dst_reg, pf_reg. right; left; assumption.
    - (* sf_sasg_var *) intros. eapply sinv_assign; eauto using dst_var, pf_ident. right; right; left; assumption.
    - (* sf_sasg_reg *) intros. eapply sinv_assign; eauto using dst_reg, pf_reg. right; right; left; assumption.
    - (* sf_decl *) intros. apply sinv_decl; assumption.
    - (* sf_decl0 *) intros. apply sinv_decl0; assumption.
    - (* sf_expr_imm *) intros. apply sinv_expr_imm; assumption.
    - (* sf_empty *) intros. apply sinv_empty.
    - (* sf_nop *) intros. apply sinv_nop.
    - (* sf_cancel *) intros. apply sinv_cancel.
    - (* sf_ssc *) intros. apply sinv_ssc; assumption.
    - (* sf_store *) intros. apply sinv_store; assumption.
    - (* sf_jump *) intros. apply sinv_jump; assumption.
    - (* sf_block *) intros. apply sinv_block; assumption.
    - (* sf_if *) intros. apply sinv_if; assumption.
    - (* sf_ifelse *) intros. apply sinv_ifelse; assumption.
    - (* sf_for *) intros D V e0 D1 V1 c inc i sg b H0 IH0 Hc Hi Hb IHb Hnl. apply (sinv_for D V e0 D1 V1 c inc i sg b); try assumption.
      exact (sfrag_vext rw IM D V _ D1 V1 H0).
    - (* sfs_nil *) intros. apply ssinv_nil.
    - (* sfs_cons *) intros D V s D1 V1 l D2 V2 Hs IHs Hl IHl. eapply ssinv_cons; [|exact IHs | exact IHl].
      exact (sfrag_vext rw IM D V s D1 V1 Hs).
  Qed.
End StmtCorrect.

(* the lowering does not depend on the register table, the removed names and the prologue the effect is later finalised
   against and run after: its result serves all of them *)
Lemma post_all rw IM ilsubs E D V D' V' nl st (low : res (list item * lstate)) cex (X : lstate -> Prop) :
  (forall R rem J, exists items st', low = OK (items, st') /\ post rw IM R rem J ilsubs E D V D' V' nl st st' items cex /\ X st') ->
  exists items st', low = OK (items, st') /\ lst_ok IM D' st' /\ st_ext st st' /\ Forall plain_item items /\ X st' /\
    forall R rem J, regs_le (st_regs st') R -> norem rem -> incl (st_imms st') J ->
      sim rw IM J ilsubs E D V D' V' (fin_eff R rem (seqn (flat_map item_effects items))) cex.
Proof.
  intros H.
  destruct (exists_forall_swap low (fun t items st' => post rw IM (fst (fst t)) (snd (fst t)) (snd t) ilsubs E D V D' V' nl st st' items cex /\ X st')
              ([], [], [])) as (items & st' & L & Hp); [intros [[R rem] J]; exact (H R rem J)|].
  exists items, st'. split; [exact L|]. destruct (Hp ([], [], [])) as ((H1 & H2 & H3 & _) & HX).
  split; [exact H1|]. split; [exact H2|]. split; [exact (pitem_plain nl items H3)|]. split; [exact HX|].
  intros R rem J. exact (proj2 (proj2 (proj2 (proj1 (Hp (R, rem, J)))))).
Qed.

(* Statement level, function Lower.lower_stmt: from any model state st of the fragment whose declared
   locals are V ([lst_ok IM V st]; the initial state qualifies, V = []), with no pending hybrid.  The emitted
   effect is the sequence of the returned items' effects (exactly what mk_sequence / tlower_info build),
   finalised against ANY later register table R, run in a state in which ANY later immediate prologue J
   has been executed. *)
Theorem stmt_correct : forall (cfg : config) (rw : regwidth) (IM : string -> bool) (ilsubs : subenv) (E : cenv) (csub : csubs) xi D V s D' V' st,
  cfg_fx cfg = all_fixes -> cfg_params cfg = [] -> macs_std (cfg_macros cfg) -> subs_ext (cfg_subs cfg) -> csub_ext csub -> xi_ok xi -> im_ok IM ->
  vext V D -> lst_ok IM D st -> st_pending st = [] ->
  sfrag rw IM D V s D' V' ->
  exists items st', lower_stmt cfg s st = OK (items, st') /\
    lst_ok IM D' st' /\ st_ext st st' /\ Forall plain_item items /\
    forall R rem J, regs_le (st_regs st') R -> norem rem -> incl (st_imms st') J ->
    forall cs ms fuel cs', srel IM E D V cs ms -> imms_done IM E J cs ms -> cexec E csub xi fuel cs s = Some cs' ->
      exists ms', runs rw ilsubs (fin_eff R rem (seqn (flat_map item_effects items))) ms ms' /\ srel IM E D' V' cs' ms' /\ imms_done IM E J cs' ms'.
Proof.
  intros cfg rw IM ilsubs E csub xi D V s D' V' st Hfx Hpar Hmacs Hssc Hcssc Hxi HIM Hext Hok Hp Hfrag.
  destruct cfg as [fx0 subs macs params cret hstart]. cbn in Hfx, Hpar, Hmacs, Hssc. subst fx0 params.
  destruct (post_all rw IM ilsubs E D V D' V' (noloop s) st (lower_stmt (mkcfg all_fixes subs macs [] cret hstart) s st)
              (fun fuel cs => cexec E csub xi fuel cs s) (fun _ => True)) as (items & st' & L & H1 & H2 & H3 & _ & H).
  - intros R rem J.
    destruct (proj1 (stmt_inv subs macs cret hstart Hmacs Hssc rw IM HIM R rem J ilsubs E csub Hcssc xi Hxi) D V s D' V' Hfrag st Hext Hok (or_introl Hp))
      as (items & st' & L & Hpost & _).
    exists items, st'. auto.
  - exists items, st'. repeat (split; [assumption|]). exact H.
Qed.
Print Assumptions stmt_correct.

(* Statement lists, function Lower.lower_stmts: sequences of any length *)
Theorem stmts_correct : forall (cfg : config) (rw : regwidth) (IM : string -> bool) (ilsubs : subenv) (E : cenv) (csub : csubs) xi D V l D' V' st,
  cfg_fx cfg = all_fixes -> cfg_params cfg = [] -> macs_std (cfg_macros cfg) -> subs_ext (cfg_subs cfg) -> csub_ext csub -> xi_ok xi -> im_ok IM ->
  vext V D -> lst_ok IM D st -> st_pending st = [] ->
  sfrags rw IM D V l D' V' ->
  exists items st', lower_stmts cfg l st = OK (items, st') /\
    lst_ok IM D' st' /\ st_ext st st' /\ Forall plain_item items /\ (started st -> l <> SNil -> st_nonempty st' = true) /\
    forall R rem J, regs_le (st_regs st') R -> norem rem -> incl (st_imms st') J ->
    forall cs ms fuel cs', srel IM E D V cs ms -> imms_done IM E J cs ms -> cexecs E csub xi fuel cs l = Some cs' ->
      exists ms', runs rw ilsubs (fin_eff R rem (seqn (flat_map item_effects items))) ms ms' /\ srel IM E D' V' cs' ms' /\ imms_done IM E J cs' ms'.
Proof.
  intros cfg rw IM ilsubs E csub xi D V l D' V' st Hfx Hpar Hmacs Hssc Hcssc Hxi HIM Hext Hok Hp Hfrag.
  destruct cfg as [fx0 subs macs params cret hstart]. cbn in Hfx, Hpar, Hmacs, Hssc. subst fx0 params.
  destruct (post_all rw IM ilsubs E D V D' V' (noloops l) st (lower_stmts (mkcfg all_fixes subs macs [] cret hstart) l st)
              (fun fuel cs => cexecs E csub xi fuel cs l) (fun st' => started st -> l <> SNil -> st_nonempty st' = true))
    as (items & st' & L & H).
  - intros R rem J.
    destruct (proj2 (stmt_inv subs macs cret hstart Hmacs Hssc rw IM HIM R rem J ilsubs E csub Hcssc xi Hxi) D V l D' V' Hfrag st Hext Hok (or_introl Hp))
      as (items & st' & L & Hpost & N).
    exists items, st'. auto.
  - exists items, st'. split; [exact L | exact H].
Qed.
Print Assumptions stmts_correct.

Lemma plain_not_dropped items : Forall plain_item items ->
  existsb (fun i => match i with ITree _ | ITok _ => true | _ => false end) items = false.
Proof. induction 1 as [|i t Hi _ IH]; [reflexivity|]. cbn [existsb]. rewrite IH. destruct i; cbn in Hi; try contradiction; reflexivity. Qed.

(* tlower_info keeps every prologue entry whose immediate is still declared: all of them, in the fragment *)
Lemma imms_kept (IM : string -> bool) (vars : list (string * option vtype)) (l : list effect) :
  Forall (fun e => exists x, IM x = true /\ e = imm_entry x /\ lookup x vars = Some (Some (imm_ty x))) l ->
  map (fun e => match e with
                | ESetL x (PImm _ _ _) => if existsb (fun v => String.eqb (fst v) x) vars then e else ESetL x (PRaw x)
                | _ => e end) l = l.
Proof.
  induction 1 as [|e t [x [_ [-> Hx]]] _ IH]; [reflexivity|]. cbn [map imm_entry].
  rewrite (lookup_some_existsb x vars _ Hx), IH. reflexivity.
Qed.

(* no immediate has been assigned: the state of the C side when the instruction starts *)
Definition imm_fresh (IM : string -> bool) (cs : cstate) : Prop :=
  forall l, IM l = true -> lookup ("imm:" +++ l) (cs_vars cs) = None.
Lemma cimm_fresh IM E cs l : imm_fresh IM cs -> IM l = true -> cimm E cs l = wrap 32 (ce_imms E l).
Proof. intros H Hl. unfold cimm. rewrite (H l Hl). reflexivity. Qed.

Lemma srel_set_imm IM E D V cs ms x : im_ok IM -> imm_fresh IM cs -> srel IM E D V cs ms -> IM x = true ->
  srel IM E D V cs (set_local ms x (VBv 32 (wrap 32 (imms ms x)))).
Proof.
  intros (HI1 & HI2 & HI3) Hfr Hrel Hx.
  apply srel_il_local; [exact Hrel | right; right; left; exact Hx | intros ->; congruence | intros ->; congruence | |].
  - intros _. rewrite (cimm_fresh IM E cs x Hfr Hx), (proj1 (proj2 (proj2 (proj2 (proj2 (proj1 Hrel)))))). reflexivity.
  - intros Hh. rewrite (HI3 x Hh) in Hx. discriminate Hx.
Qed.

Lemma imms_done_set_imm IM E J cs ms x : imm_fresh IM cs -> (forall l, ce_imms E l = imms ms l) -> IM x = true ->
  imms_done IM E J cs ms -> imms_done IM E J cs (set_local ms x (VBv 32 (wrap 32 (imms ms x)))).
Proof.
  intros Hfr R5 Hx H l Hl Hin. cbn [locals set_local lookup imms].
  destruct (String.eqb_spec l x) as [->|_]; [|exact (H l Hl Hin)].
  rewrite (cimm_fresh IM E cs x Hfr Hx), R5. reflexivity.
Qed.

Lemma imm_entry_inj x y : imm_entry x = imm_entry y -> x = y.
Proof. unfold imm_entry. intros H. injection H. auto. Qed.

(* running the prologue from a related state in which no immediate has been assigned: the immediates' locals get their
   encoded values *)
Lemma run_prologue rw IM ilsubs E R rem D V cs (l : list effect) : im_ok IM -> imm_fresh IM cs ->
  Forall (fun e => exists x, IM x = true /\ e = imm_entry x) l ->
  forall ms, srel IM E D V cs ms ->
    exists ms1, runs rw ilsubs (seqn (map (fin_eff R rem) l)) ms ms1 /\ srel IM E D V cs ms1 /\ imms_done IM E l cs ms1 /\
                (forall J, imms_done IM E J cs ms -> imms_done IM E J cs ms1).
Proof.
  intros HIM Hfr. induction 1 as [|e t [x [Hx ->]] _ IH]; intros ms Hrel.
  - exists ms. split; [apply runs_empty; reflexivity|]. split; [exact Hrel|]. split; [intros l0 _ []|auto].
  - set (ms0 := set_local ms x (VBv 32 (wrap 32 (imms ms x)))).
    assert (Hrel0 : srel IM E D V cs ms0) by (apply srel_set_imm; assumption).
    assert (R5 : forall l, ce_imms E l = imms ms l) by (apply Hrel).
    destruct (IH ms0 Hrel0) as [ms1 [Run [Rel1 [Done1 Pres1]]]].
    exists ms1. split; [|split; [exact Rel1|split]].
    + cbn [map]. apply runs_seqn_cons. exists ms0. split; [|exact Run].
      cbn [imm_entry fin_eff fin_pure]. exists 1%nat. cbn [exec eval].
      destruct Hrel as [_ [_ [_ [_ [_ [_ [H7 _]]]]]]]. destruct (H7 x Hx) as [-> | ->]; reflexivity.
    + intros y Hy [Hin | Hin].
      * apply imm_entry_inj in Hin. subst y.
        apply (Pres1 [imm_entry x]); [|exact Hy | left; reflexivity].
        intros z _ [Hz | []]. apply imm_entry_inj in Hz. subst z. unfold ms0. cbn [locals set_local lookup imms].
        rewrite String.eqb_refl. rewrite (cimm_fresh IM E cs x Hfr Hx), R5. reflexivity.
      * exact (Done1 y Hy Hin).
    + intros J0 HJ0. apply Pres1. apply imms_done_set_imm; assumption.
Qed.

(* Top level, functions Lower.tlower_info / Lower.tlower INCLUDING the final wrapping (immediate
   prologue, the emptiness test, finalisation of register operands against the
   final register table): a whole behaviour of the fragment, started in the initial model state.
   Besides the simulation: the hybrid counter only grows (by one per loop), nothing is left over, nothing is dropped.
   The translation depends on neither machine's environment: one effect serves all of them (the lowering is a function:
   the items stmts_correct speaks of are the same for every environment). *)
Theorem tlower_correct_uniform cfg rw IM prog D' V' :
  cfg_fx cfg = all_fixes -> cfg_params cfg = [] -> macs_std (cfg_macros cfg) -> subs_ext (cfg_subs cfg) -> im_ok IM ->
  sfrags rw IM [] [] prog D' V' ->
  exists eff h', tlower_info cfg prog = OK (mkti eff h' 0 false []) /\ (cfg_hstart cfg <= h')%N /\
    forall ilsubs E csub xi cs ms fuel cs', csub_ext csub -> xi_ok xi ->
      srel IM E [] [] cs ms -> imm_fresh IM cs -> cexecs E csub xi fuel cs prog = Some cs' ->
      exists ms', runs rw ilsubs eff ms ms' /\ srel IM E D' V' cs' ms'.
Proof.
  intros Hfx Hpar Hmacs Hssc HIM Hfrag.
  pose proof (fun ilsubs E csub xi Hcssc Hxi =>
                stmts_correct cfg rw IM ilsubs E csub xi [] [] prog D' V' (init_state cfg) Hfx Hpar Hmacs Hssc Hcssc Hxi HIM
                              (vext_refl _) (lst_ok_init IM cfg) eq_refl Hfrag) as Hsc.
  destruct (Hsc (fun _ => None) (mkce (fun _ => 0) (fun _ => 0) (fun _ => 0) 0 (fun _ => 0)) (fun _ => None) explicit_reg_info
                csub_ext_none xi_ok_std) as (items & st' & L & Hok & X & H5 & N & _).
  destruct X as (Fp & Fh & _ & Fr & _). cbn [init_state st_pending st_hcount st_removed] in Fp, Fh, Fr.
  destruct prog as [|s t].
  - (* the empty behaviour *)
    inversion Hfrag; subst. exists ENop, (cfg_hstart cfg). split; [reflexivity|]. split; [apply N.le_refl|].
    intros ilsubs E csub xi cs ms fuel cs' _ _ Hrel Hfr Hce. destruct fuel as [|k]; [discriminate Hce|]. cbn in Hce. injection Hce as <-.
    exists ms. split; [apply runs_nop; reflexivity | exact Hrel].
  - assert (Hne : st_nonempty st' = true) by (apply N; [right; split; reflexivity | discriminate]).
    exists (fin_eff (st_regs st') [] (seqn (st_imms st' ++ flat_map item_effects items))), (st_hcount st').
    split; [|split; [exact Fh|]].
    { unfold tlower_info. rewrite L. rewrite (plain_not_dropped items H5), Hne, Fp, Fr. cbn [negb map app List.length].
      rewrite (imms_kept IM (st_vars st') (st_imms st') (proj1 (proj2 (proj2 (proj2 Hok))))). reflexivity. }
    intros ilsubs E csub xi cs ms fuel cs' Hcssc Hxi Hrel Hfr Hce.
    destruct (Hsc ilsubs E csub xi Hcssc Hxi) as (items0 & st0 & L0 & _ & _ & _ & _ & H6). rewrite L in L0. injection L0 as <- <-.
    assert (Hwf : Forall (fun e => exists x, IM x = true /\ e = imm_entry x) (st_imms st')).
    { eapply Forall_impl; [|exact (proj1 (proj2 (proj2 (proj2 Hok))))]. intros e [x [A [B _]]]. eauto. }
    destruct (run_prologue rw IM ilsubs E (st_regs st') [] [] [] cs (st_imms st') HIM Hfr Hwf ms Hrel) as (ms1 & Run1 & Rel1 & Done1 & _).
    destruct (H6 (st_regs st') [] (st_imms st') (regs_le_refl _) norem_nil (incl_refl _) cs ms1 fuel cs' Rel1 Done1 Hce)
      as (ms' & Run2 & Rel2 & _).
    exists ms'. split; [|exact Rel2].
    rewrite fin_eff_seqn, map_app. apply runs_seqn_app. exists ms1. rewrite <- (fin_eff_seqn _ _ (flat_map _ _)). split; assumption.
Qed.

Theorem tlower_correct : forall (cfg : config) (rw : regwidth) (IM : string -> bool) (ilsubs : subenv) (E : cenv) (csub : csubs) xi prog D' V',
  cfg_fx cfg = all_fixes -> cfg_params cfg = [] -> macs_std (cfg_macros cfg) -> subs_ext (cfg_subs cfg) -> csub_ext csub -> xi_ok xi -> im_ok IM ->
  sfrags rw IM [] [] prog D' V' ->
  exists eff h', tlower_info cfg prog = OK (mkti eff h' 0 false []) /\
    tlower cfg prog = OK (eff, h') /\ (cfg_hstart cfg <= h')%N /\
    forall cs ms fuel cs', srel IM E [] [] cs ms -> imm_fresh IM cs -> cexecs E csub xi fuel cs prog = Some cs' ->
      exists ms', runs rw ilsubs eff ms ms' /\ srel IM E D' V' cs' ms'.
Proof.
  intros cfg rw IM ilsubs E csub xi prog D' V' Hfx Hpar Hmacs Hssc Hcssc Hxi HIM Hfrag.
  destruct (tlower_correct_uniform cfg rw IM prog D' V' Hfx Hpar Hmacs Hssc HIM Hfrag) as (eff & h' & Hinfo & Hle & Hsim).
  exists eff, h'. split; [exact Hinfo|]. split; [unfold tlower; rewrite Hinfo; reflexivity|]. split; [exact Hle|].
  intros cs ms fuel cs'. exact (Hsim ilsubs E csub xi cs ms fuel cs' Hcssc Hxi).
Qed.
Print Assumptions tlower_correct.

(* the same with the fuel of the IL interpreter made explicit: every sufficiently large fuel works *)
Corollary tlower_correct_fuel : forall (cfg : config) (rw : regwidth) (IM : string -> bool) (ilsubs : subenv) (E : cenv) (csub : csubs) xi prog D' V' eff h,
  cfg_fx cfg = all_fixes -> cfg_params cfg = [] -> macs_std (cfg_macros cfg) -> subs_ext (cfg_subs cfg) -> csub_ext csub -> xi_ok xi -> im_ok IM ->
  sfrags rw IM [] [] prog D' V' -> tlower cfg prog = OK (eff, h) ->
  forall cs ms fuel cs', srel IM E [] [] cs ms -> imm_fresh IM cs -> cexecs E csub xi fuel cs prog = Some cs' ->
    exists n ms', (forall fuel', (n <= fuel')%nat -> exec rw ilsubs fuel' eff ms = Some ms') /\ srel IM E D' V' cs' ms'.
Proof.
  intros cfg rw IM ilsubs E csub xi prog D' V' eff h Hfx Hpar Hmacs Hssc Hcssc Hxi HIM Hfrag Hlow cs ms fuel cs' Hrel Hfr Hce.
  destruct (tlower_correct cfg rw IM ilsubs E csub xi prog D' V' Hfx Hpar Hmacs Hssc Hcssc Hxi HIM Hfrag) as [eff0 [h0 [_ [Hlow0 [_ Hsim]]]]].
  rewrite Hlow0 in Hlow. injection Hlow as <- _.
  destruct (Hsim cs ms fuel cs' Hrel Hfr Hce) as [ms' [[n Hn] Hrel']].
  exists n, ms'. split; [|exact Hrel'].
  intros fuel' Hle. exact (exec_mono rw ilsubs n eff0 ms ms' Hn fuel' Hle).
Qed.
Print Assumptions tlower_correct_fuel.

Module Example.
  Definition num (v : Z) := EOp (ONum v false "").
  Definition var (x : string) := EOp (OIdent x).
  Definition reg (cls letters : string) := EOp (OReg cls letters).
  Definition imm (l : string) := EOp (OImm l).
  (*  int32_t x = 5;
      size1u_t b = 250;
      if (x > 3) { RdV = x + 1; JUMP(x * 4); } else RdV = -x;
      x = x * 2;
      b += x;                      (wraps around: 250 + 10 = 4 in 8 bits)
      mem_store_u16(x + 4, b);                            *)
  Definition prog : cstmts :=
    SCons (SDecl [TS_intN true 32] "x" (Some (num 5)))
   (SCons (SDecl [TS_sizeN 1 false] "b" (Some (num 250)))
   (SCons (SIf (EBin BGt (var "x") (num 3))
               (SBlock (SCons (SExpr (EAssign AAssign (EOp (OReg "R" "d")) (EBin Ast.BAdd (var "x") (num 1))))
                       (SCons (SJump (EBin Ast.BMul (var "x") (num 4))) SNil)))
               (Some (SExpr (EAssign AAssign (EOp (OReg "R" "d")) (EUn UMinus (var "x"))))))
   (SCons (SExpr (EAssign AAssign (var "x") (EBin Ast.BMul (var "x") (num 2))))
   (SCons (SExpr (EAssign AAdd (var "b") (var "x")))
   (SCons (SStore false 16 (ECons (EBin Ast.BAdd (var "x") (num 4)) (ECons (var "b") ENil))) SNil))))).

  Definition cfg := mkcfg all_fixes [] std_macs [] None 0.
  Definition rw : regwidth := fun _ => 32%N.
  Definition env : cenv := mkce (fun _ => 0) (fun _ => 0) (fun _ => 0) 0 (fun _ => 0).
  Definition nosubs : csubs := fun _ => None.
  (* (the table of explicit registers the C semantics is given: the standard one, ExprCorrect.xi_ok_std) *)
  Definition noxi : string -> bool -> option (regop * N) := explicit_reg_info.
  (* the IL machine state that starts from the operand environment E, before the instruction has done anything *)
  Definition ms_of (E : cenv) : mstate :=
    {| locals := []; rold := ce_rold E; rnew := []; rnew0 := ce_rnew0 E; imms := ce_imms E;
       pktaddr := ce_pktaddr E; mem := []; mem0 := ce_mem0 E; events := [] |}.
  Definition ms0 : mstate := ms_of env.
  Definition Vx : list (string * option vtype) := [("x", Some (ty_int true 32)); ("b", Some (ty_int false 8))].

  Ltac pf :=
    repeat first
      [ eapply pf_num; [lia | reflexivity]
      | eapply pf_ident; [reflexivity | unfold okw; auto]
      | eapply (pf_reg _ _ _ "R" "s" AR); [left; reflexivity | reflexivity | reflexivity]
      | eapply (pf_reg _ _ _ "R" "t" AR); [left; reflexivity | reflexivity | reflexivity]
      | eapply (pf_reg _ _ _ "R" "d" AW); [left; reflexivity | reflexivity | reflexivity]
      | apply pf_imm; reflexivity
      | apply pf_bin; [unfold is_folding_op, is_plain_op, is_cmp; auto 15 | | ]
      | apply pf_un; [auto | ] ].

  Ltac not_reserved := intros [Hres | [Hres | [Hres | [Hres | Hres]]]]; try discriminate Hres; vm_compute in Hres; discriminate Hres.

  (* every operand environment is related to its initial machine state *)
  Lemma srel_init IM E : srel IM E [] [] cs0 (ms_of E).
  Proof.
    split; [|split; [reflexivity|]].
    - unfold rel. cbn [cs0 ms_of cs_vars cs_regw cs_mem locals rnew rold rnew0 imms mem mem0 pktaddr lookup lookup_reg].
      split; [intros x sg w H; discriminate H|].
      repeat (split; [reflexivity|]). split; [|auto 10]. intros l _. unfold cimm. cbn [cs0 cs_vars lookup]. apply wrap_range.
    - cbn. repeat split; try reflexivity; try (intros x t H; discriminate H); try (intros l _; left; reflexivity).
  Qed.
  Lemma fresh_init IM : imm_fresh IM cs0.
  Proof. intros l _. reflexivity. Qed.

  (* tlower_correct at the example configuration, from the initial states *)
  Lemma simulated rw IM ilsubs E prog D' V' eff cs' : im_ok IM -> sfrags rw IM [] [] prog D' V' ->
    tlower cfg prog = OK (eff, 0%N) -> cexecs E nosubs noxi 20 cs0 prog = Some cs' ->
    exists ms', runs rw ilsubs eff (ms_of E) ms' /\ srel IM E D' V' cs' ms'.
  Proof.
    intros HIM Hf Hl Hc.
    destruct (tlower_correct cfg rw IM ilsubs E nosubs noxi prog D' V' eq_refl eq_refl macs_std_self subs_ext_nil csub_ext_none xi_ok_std HIM Hf)
      as (eff0 & h0 & _ & Hl0 & _ & Hsim).
    rewrite Hl in Hl0. injection Hl0 as <- _. exact (Hsim cs0 (ms_of E) 20%nat cs' (srel_init IM E) (fresh_init IM) Hc).
  Qed.

  Example prog_in_fragment : sfrags rw imm_letter [] [] prog Vx Vx.
  Proof.
    unfold prog, Vx.
    eapply sfs_cons.
    { eapply (sf_decl rw imm_letter [] [] [TS_intN true 32] true 32 "x"); [left; left; auto | reflexivity | not_reserved | unfold num; pf]. }
    cbn [app].
    eapply sfs_cons.
    { eapply (sf_decl rw imm_letter _ _ [TS_sizeN 1 false] false 8 "b");
        [right; exists 1%N; unfold okw; auto | reflexivity | not_reserved | unfold num; pf]. }
    cbn [app].
    eapply sfs_cons.
    { apply sf_ifelse.
      - unfold var, num. pf.
      - apply sf_block. eapply sfs_cons.
        { eapply (sf_asg_reg rw imm_letter _ _ "R" "d" AW); [left; reflexivity | reflexivity | reflexivity | unfold var, num; pf]. }
        eapply sfs_cons; [|apply sfs_nil]. apply sf_jump. unfold var, num. pf.
      - eapply (sf_asg_reg rw imm_letter _ _ "R" "d" AW); [left; reflexivity | reflexivity | reflexivity | unfold var; pf]. }
    eapply sfs_cons.
    { eapply (sf_asg_var rw imm_letter _ _ "x" true 32); [reflexivity | auto | unfold var, num; pf]. }
    eapply sfs_cons.
    { eapply (sf_casg_var rw imm_letter _ _ AAdd "b" false 8); [auto | reflexivity | unfold okw; auto | unfold var; pf]. }
    eapply sfs_cons; [|apply sfs_nil].
    apply sf_store; [unfold okw; auto | unfold var, num; pf | unfold var; pf].
  Qed.

  (* the premises of tlower_correct are satisfiable: configuration, related initial states, and a
     terminating C execution *)
  Example premises_satisfiable :
    cfg_fx cfg = all_fixes /\ cfg_params cfg = [] /\ srel imm_letter env [] [] cs0 ms0 /\
    exists cs', cexecs env nosubs noxi 20 cs0 prog = Some cs' /\
                lookup "x" (cs_vars cs') = Some ((true, 32%N), Some 10) /\
                lookup "b" (cs_vars cs') = Some ((false, 8%N), Some 4) /\
                cs_regw cs' = [(RIsa "R" "d" false, 6)] /\ cs_mem cs' = [(15, 0); (14, 4)] /\ cs_jump cs' = Some 20.
  Proof.
    split; [reflexivity|]. split; [reflexivity|]. split; [apply srel_init|].
    eexists. split; [vm_compute; reflexivity|]. repeat split; reflexivity.
  Qed.

  (* what the compiler model emits for it (the function the theorem is about), and the theorem applied *)
  Example prog_lowered :
    tlower cfg prog =
    OK (ESeq (ESetL "x" (PBv true 32 5))
       (ESeq (ESetL "b" (PCast 8 (PBool false) (PBv true 32 250)))
       (ESeq (EBranch (PCmp CSgt (PVarL "x") (PBv true 32 3))
                      (ESeq (EWriteReg (RIsa "R" "d" false) (PBin RzIL.BAdd (PVarL "x") (PBv true 32 1)))
                      (ESeq (ESetL "jump_flag" (PBool true))
                            (ESetL "jump_target" (PBin RzIL.BMul (PVarL "x") (PBv true 32 4)))))
                      (EWriteReg (RIsa "R" "d" false) (PUn UNeg (PVarL "x"))))
       (ESeq (ESetL "x" (PBin RzIL.BMul (PVarL "x") (PBv true 32 2)))
       (ESeq (ESetL "b" (PCast 8 (PBool false)
                           (PBin RzIL.BAdd (PCast 32 (PBool false) (PVarL "b"))
                                           (PCast 32 (PBool false) (PCast 8 (PBool false) (PVarL "x"))))))
             (EStore (PBin RzIL.BAdd (PVarL "x") (PBv true 32 4)) (PCast 16 (PBool false) (PVarL "b"))))))), 0%N).
  Proof. vm_compute. reflexivity. Qed.

  Example prog_simulated : forall ilsubs,
    exists eff cs' ms', tlower cfg prog = OK (eff, 0%N) /\
      cexecs env nosubs noxi 20 cs0 prog = Some cs' /\ runs rw ilsubs eff ms0 ms' /\ srel imm_letter env Vx Vx cs' ms'.
  Proof.
    intros ilsubs. destruct premises_satisfiable as (_ & _ & _ & cs' & Hc & _).
    destruct (simulated rw imm_letter ilsubs env prog Vx Vx _ cs' im_ok_letters prog_in_fragment prog_lowered Hc) as (ms' & Hrun & Hrel).
    eexists. exists cs', ms'. split; [exact prog_lowered | auto].
  Qed.

  (* second program: register operands and an immediate
        int32_t t = RsV + siV;
        if (t > RtV) { RdV = t; } else { RdV = RtV - 1; }
        mem_store_u32(RsV, RdV);            (RdV read back after it was written)
     run with RsV = 1000, RtV = 2000, siV = -7: t = 993, the else branch writes RdV = 1999, which is stored at 1000 *)
  Definition prog2 : cstmts :=
    SCons (SDecl [TS_intN true 32] "t" (Some (EBin Ast.BAdd (reg "R" "s") (imm "s"))))
   (SCons (SIf (EBin BGt (var "t") (reg "R" "t"))
               (SBlock (SCons (SExpr (EAssign AAssign (reg "R" "d") (var "t"))) SNil))
               (Some (SBlock (SCons (SExpr (EAssign AAssign (reg "R" "d") (EBin Ast.BSub (reg "R" "t") (num 1)))) SNil))))
   (SCons (SStore false 32 (ECons (reg "R" "s") (ECons (reg "R" "d") ENil))) SNil)).
  Definition Vt : list (string * option vtype) := [("t", Some (ty_int true 32))].
  Definition env2 : cenv :=
    mkce (fun r => if regop_eqb r (RIsa "R" "s" false) then 1000 else if regop_eqb r (RIsa "R" "t" false) then 2000 else 77)
         (fun _ => 0) (fun l => if String.eqb l "s" then -7 else 0) 0 (fun _ => 0).

  Example prog2_in_fragment : sfrags rw imm_letter [] [] prog2 Vt Vt.
  Proof.
    unfold prog2, Vt.
    eapply sfs_cons.
    { eapply (sf_decl rw imm_letter [] [] [TS_intN true 32] true 32 "t"); [left; left; auto | reflexivity | not_reserved | unfold reg, imm; pf]. }
    cbn [app].
    eapply sfs_cons.
    { apply sf_ifelse.
      - unfold var, reg. pf.
      - apply sf_block. eapply sfs_cons; [|apply sfs_nil].
        eapply (sf_asg_reg rw imm_letter _ _ "R" "d" AW); [left; reflexivity | reflexivity | reflexivity | unfold var; pf].
      - apply sf_block. eapply sfs_cons; [|apply sfs_nil].
        eapply (sf_asg_reg rw imm_letter _ _ "R" "d" AW); [left; reflexivity | reflexivity | reflexivity | unfold reg, num; pf]. }
    eapply sfs_cons; [|apply sfs_nil].
    apply sf_store; [unfold okw; auto | unfold reg; pf | unfold reg; pf].
  Qed.

  Example premises2_satisfiable :
    cfg_fx cfg = all_fixes /\ cfg_params cfg = [] /\ srel imm_letter env2 [] [] cs0 (ms_of env2) /\
    exists cs', cexecs env2 nosubs noxi 20 cs0 prog2 = Some cs' /\
                lookup "t" (cs_vars cs') = Some ((true, 32%N), Some 993) /\
                cs_regw cs' = [(RIsa "R" "d" false, 1999)] /\
                cs_mem cs' = [(1003, 0); (1002, 0); (1001, 7); (1000, 207)].
  Proof.
    split; [reflexivity|]. split; [reflexivity|]. split; [apply srel_init|].
    eexists. split; [vm_compute; reflexivity|]. repeat split; reflexivity.
  Qed.

  (* the immediate prologue comes first; source operands are READ_REG(op, false); the destination operand read
     back in the store is READ_REG(op, true), the new bank *)
  Example prog2_lowered :
    tlower cfg prog2 =
    OK (ESeq (ESetL "s" (PImm "s" true 32))
       (ESeq (ESetL "t" (PBin RzIL.BAdd (PReg (RIsa "R" "s" false) false) (PVarL "s")))
       (ESeq (EBranch (PCmp CSgt (PVarL "t") (PReg (RIsa "R" "t" false) false))
                      (EWriteReg (RIsa "R" "d" false) (PVarL "t"))
                      (EWriteReg (RIsa "R" "d" false) (PBin RzIL.BSub (PReg (RIsa "R" "t" false) false) (PBv true 32 1))))
             (EStore (PReg (RIsa "R" "s" false) false) (PCast 32 (PBool false) (PReg (RIsa "R" "d" false) true))))), 0%N).
  Proof. vm_compute. reflexivity. Qed.

  Example prog2_simulated : forall ilsubs,
    exists eff cs' ms', tlower cfg prog2 = OK (eff, 0%N) /\
      cexecs env2 nosubs noxi 20 cs0 prog2 = Some cs' /\ runs rw ilsubs eff (ms_of env2) ms' /\ srel imm_letter env2 Vt Vt cs' ms' /\
      rnew ms' = [(RIsa "R" "d" false, 1999)] /\ mem ms' = [(1003, 0); (1002, 0); (1001, 7); (1000, 207)].
  Proof.
    intros ilsubs. destruct premises2_satisfiable as (_ & _ & _ & cs' & Hc & _ & Hr & Hm).
    destruct (simulated rw imm_letter ilsubs env2 prog2 Vt Vt _ cs' im_ok_letters prog2_in_fragment prog2_lowered Hc) as (ms' & Hrun & Hrel).
    eexists. exists cs', ms'. split; [exact prog2_lowered|]. repeat (split; [assumption|]).
    destruct Hrel as ((_ & Hregw & _) & _ & Hmem & _). split; congruence.
  Qed.

  (* third program: predicates, pairs, .new operands,
     a read-write operand; the width environment gives every operand handle the width of the operand
        if (PuN) { RddV = RssV; } else { RddV = RttV + 1; }
        if (PvV) RxV = RxV + NsN;                                                                       *)
  Definition nreg (cls letters : string) := EOp (ONewReg cls letters).
  Definition prog3 : cstmts :=
    SCons (SIf (nreg "P" "u")
               (SBlock (SCons (SExpr (EAssign AAssign (reg "R" "dd") (reg "R" "ss"))) SNil))
               (Some (SBlock (SCons (SExpr (EAssign AAssign (reg "R" "dd") (EBin Ast.BAdd (reg "R" "tt") (num 1)))) SNil))))
   (SCons (SIf (reg "P" "v") (SExpr (EAssign AAssign (reg "R" "x") (EBin Ast.BAdd (reg "R" "x") (nreg "N" "s")))) None) SNil).
  Definition rw3 : regwidth := fun r =>
    match r with
    | RIsa "P" _ _ => 8%N
    | RIsa "R" l false => if existsb (String.eqb l) ["d"; "s"; "t"] then 64%N else 32%N
    | _ => 32%N
    end.
  Definition env3 : cenv :=
    mkce (fun r => if regop_eqb r (RIsa "R" "t" false) then 18446744073709551615       (* RttV = -1 *)
                   else if regop_eqb r (RIsa "R" "x" false) then 40 else if regop_eqb r (RIsa "P" "v" false) then 255 else 3)
         (fun r => if regop_eqb r (RNreg "s") then 2 else 0)                            (* PuN = 0, NsN = 2 *)
         (fun _ => 0) 0 (fun _ => 0).

  Example prog3_in_fragment : sfrags rw3 imm_letter [] [] prog3 [] [].
  Proof.
    unfold prog3.
    eapply sfs_cons.
    { apply sf_ifelse.
      - eapply (pf_newreg _ _ _ "P" "u" AR); [left; right; left; reflexivity | reflexivity | reflexivity].
      - apply sf_block. eapply sfs_cons; [|apply sfs_nil].
        eapply (sf_asg_reg rw3 imm_letter _ _ "R" "dd" APW); [left; reflexivity | reflexivity | reflexivity |].
        eapply (pf_reg _ _ _ "R" "ss" APR); [left; reflexivity | reflexivity | reflexivity].
      - apply sf_block. eapply sfs_cons; [|apply sfs_nil].
        eapply (sf_asg_reg rw3 imm_letter _ _ "R" "dd" APW); [left; reflexivity | reflexivity | reflexivity |].
        apply pf_bin; [unfold is_folding_op; auto | | unfold num; pf].
        eapply (pf_reg _ _ _ "R" "tt" APR); [left; reflexivity | reflexivity | reflexivity]. }
    eapply sfs_cons; [|apply sfs_nil].
    apply sf_if.
    - eapply (pf_reg _ _ _ "P" "v" AR); [right; left; reflexivity | reflexivity | reflexivity].
    - eapply (sf_asg_reg rw3 imm_letter _ _ "R" "x" ARW); [left; reflexivity | reflexivity | reflexivity |].
      apply pf_bin; [unfold is_folding_op; auto | | ].
      + eapply (pf_reg _ _ _ "R" "x" ARW); [left; reflexivity | reflexivity | reflexivity].
      + eapply (pf_newreg _ _ _ "N" "s" AR); [right; split; reflexivity | reflexivity | reflexivity].
  Qed.

  Example prog3_lowered :
    tlower cfg prog3 =
    OK (ESeq (EBranch (PNonZero (PReg (RIsa "P" "u" true) true))
                      (EWriteReg (RIsa "R" "d" false) (PReg (RIsa "R" "s" false) false))
                      (EWriteReg (RIsa "R" "d" false)
                         (PBin RzIL.BAdd (PReg (RIsa "R" "t" false) false)
                                         (PCast 64 (PMsb (PBv true 32 1)) (PBv true 32 1)))))
             (EBranch (PNonZero (PReg (RIsa "P" "v" false) false))
                      (EWriteReg (RIsa "R" "x" false) (PBin RzIL.BAdd (PReg (RIsa "R" "x" false) false) (PReg (RNreg "s") true)))
                      EEmpty), 0%N).
  Proof. vm_compute. reflexivity. Qed.

  Example prog3_simulated : forall ilsubs,
    exists eff cs' ms', tlower cfg prog3 = OK (eff, 0%N) /\
      cexecs env3 nosubs noxi 20 cs0 prog3 = Some cs' /\ runs rw3 ilsubs eff (ms_of env3) ms' /\ srel imm_letter env3 [] [] cs' ms' /\
      rnew ms' = [(RIsa "R" "x" false, 42); (RIsa "R" "d" false, 0)].      (* RddV = -1 + 1 = 0; RxV = 40 + 2 *)
  Proof.
    intros ilsubs.
    assert (Hc : exists cs', cexecs env3 nosubs noxi 20 cs0 prog3 = Some cs' /\ cs_regw cs' = [(RIsa "R" "x" false, 42); (RIsa "R" "d" false, 0)]).
    { eexists. split; [vm_compute; reflexivity | reflexivity]. }
    destruct Hc as (cs' & Hc & Hr).
    destruct (simulated rw3 imm_letter ilsubs env3 prog3 [] [] _ cs' im_ok_letters prog3_in_fragment prog3_lowered Hc) as (ms' & Hrun & Hrel).
    eexists. exists cs', ms'. split; [exact prog3_lowered|]. repeat (split; [assumption|]).
    destruct Hrel as ((_ & Hregw & _) & _). congruence.
  Qed.

  (* Why sf_decl demands a FRESH name.  Legal C with two disjoint block scopes:
        { int8_t x = 1; }  { int32_t x = 300; RdV = x; }
     C11 (CSem) gives RdV = 300.  The model (all repairs on) converts the initialiser to the type of the
     EXISTING variable first (300 -> int8_t = 44) and only then to the declared type, and re-types the
     RzIL local x from 8 to 32 bits: the emitted effect is ill-sorted (exec = None), and would write 44. *)
  Definition redecl : cstmts :=
    SCons (SBlock (SCons (SDecl [TS_intN true 8] "x" (Some (num 1))) SNil))
   (SCons (SBlock (SCons (SDecl [TS_intN true 32] "x" (Some (num 300)))
                  (SCons (SExpr (EAssign AAssign (EOp (OReg "R" "d")) (var "x"))) SNil))) SNil).
  Example redeclaration_counterexample :
    option_map cs_regw (cexecs env nosubs noxi 20 cs0 redecl) = Some [(RIsa "R" "d" false, 300)] /\
    tlower cfg redecl =
      OK (ESeq (ESetL "x" (PCast 8 (PMsb (PBv true 32 1)) (PBv true 32 1)))
         (ESeq (ESetL "x" (PCast 32 (PMsb (PCast 8 (PMsb (PBv true 32 300)) (PBv true 32 300)))
                                    (PCast 8 (PMsb (PBv true 32 300)) (PBv true 32 300))))
               (EWriteReg (RIsa "R" "d" false) (PVarL "x"))), 0%N) /\
    (forall e h, tlower cfg redecl = OK (e, h) -> exec rw (fun _ => None) 20 e ms0 = None) /\
    eval rw ms0 [] (PCast 32 (PMsb (PCast 8 (PMsb (PBv true 32 300)) (PBv true 32 300)))
                             (PCast 8 (PMsb (PBv true 32 300)) (PBv true 32 300))) = Some (VBv 32 44).
  Proof.
    split; [vm_compute; reflexivity|]. split; [vm_compute; reflexivity|]. split; [|vm_compute; reflexivity].
    intros e h H. vm_compute in H. injection H as <- _. vm_compute. reflexivity.
  Qed.

  (* Why the fragment reserves the letters of the immediates a behaviour uses (IM) as names of locals.  The model keeps
     immediates and declared locals in ONE table keyed by the bare letter, C does not:
        { int32_t s = 5; RdV = siV; }          with siV = 9
     C11 (CSem) gives RdV = 9 (the immediate).  The model (all repairs on) finds the local `s` when it lowers
     `siV`, emits no prologue and reads the local: the emitted effect writes 5.  In the other order
        { RdV = siV; int32_t s = 5; ReV = siV; }
     the declaration overwrites the RzIL local of the immediate: ReV gets 5 instead of 9. *)
  Definition env9 : cenv := mkce (fun _ => 0) (fun _ => 0) (fun l => if String.eqb l "s" then 9 else 0) 0 (fun _ => 0).
  Definition clash1 : cstmts :=
    SCons (SDecl [TS_intN true 32] "s" (Some (num 5)))
   (SCons (SExpr (EAssign AAssign (reg "R" "d") (imm "s"))) SNil).
  Definition clash2 : cstmts :=
    SCons (SExpr (EAssign AAssign (reg "R" "d") (imm "s")))
   (SCons (SDecl [TS_intN true 32] "s" (Some (num 5)))
   (SCons (SExpr (EAssign AAssign (reg "R" "e") (imm "s"))) SNil)).
  Example imm_local_clash_refuted :
    (option_map cs_regw (cexecs env9 nosubs noxi 20 cs0 clash1) = Some [(RIsa "R" "d" false, 9)] /\
     tlower cfg clash1 = OK (ESeq (ESetL "s" (PBv true 32 5)) (EWriteReg (RIsa "R" "d" false) (PVarL "s")), 0%N) /\
     forall e h, tlower cfg clash1 = OK (e, h) ->
       option_map rnew (exec rw (fun _ => None) 20 e (ms_of env9)) = Some [(RIsa "R" "d" false, 5)]) /\
    (option_map cs_regw (cexecs env9 nosubs noxi 20 cs0 clash2) = Some [(RIsa "R" "e" false, 9); (RIsa "R" "d" false, 9)] /\
     forall e h, tlower cfg clash2 = OK (e, h) ->
       option_map rnew (exec rw (fun _ => None) 20 e (ms_of env9)) = Some [(RIsa "R" "e" false, 5); (RIsa "R" "d" false, 9)]).
  Proof.
    split; (split; [vm_compute; reflexivity|]).
    - split; [vm_compute; reflexivity|]. intros e h H. vm_compute in H. injection H as <- _. vm_compute. reflexivity.
    - intros e h H. vm_compute in H. injection H as <- _. vm_compute. reflexivity.
  Qed.

  (* the immediate set is a parameter: only the immediates the
     behaviour uses are reserved.  A local named like ANOTHER immediate letter of the grammar is fine:
        int32_t n = siV + 1;  RdV = n;          (uses siV only: IM = {s}) *)
  Definition only_s : string -> bool := fun l => String.eqb l "s".
  Lemma im_ok_only_s : im_ok only_s.
  Proof.
    destruct (proj1 (im_ok_l_iff ["s"]) eq_refl) as [_ [_ C]]. split; [reflexivity|]. split; [reflexivity|].
    intros x Hx. specialize (C x Hx). cbn [existsb] in C. rewrite orb_false_r in C. exact C.
  Qed.
  Definition prog4 : cstmts :=
    SCons (SDecl [TS_intN true 32] "n" (Some (EBin Ast.BAdd (imm "s") (num 1))))
   (SCons (SExpr (EAssign AAssign (reg "R" "d") (var "n"))) SNil).
  Example prog4_in_fragment : sfrags rw only_s [] [] prog4 [("n", Some (ty_int true 32))] [("n", Some (ty_int true 32))].
  Proof.
    unfold prog4.
    eapply sfs_cons.
    { eapply (sf_decl rw only_s [] [] [TS_intN true 32] true 32 "n"); [left; left; auto | reflexivity | not_reserved | ].
      apply pf_bin; [unfold is_folding_op; auto | apply pf_imm; reflexivity | unfold num; pf]. }
    cbn [app].
    eapply sfs_cons; [|apply sfs_nil].
    eapply (sf_asg_reg rw only_s _ _ "R" "d" AW); [left; reflexivity | reflexivity | reflexivity | unfold var; pf].
  Qed.
  Example prog4_simulated : forall ilsubs,
    exists eff cs' ms', tlower cfg prog4 = OK (eff, 0%N) /\
      cexecs env9 nosubs noxi 20 cs0 prog4 = Some cs' /\ runs rw ilsubs eff (ms_of env9) ms' /\
      srel only_s env9 [("n", Some (ty_int true 32))] [("n", Some (ty_int true 32))] cs' ms' /\ rnew ms' = [(RIsa "R" "d" false, 10)].
  Proof.
    intros ilsubs.
    assert (Hl : exists eff, tlower cfg prog4 = OK (eff, 0%N)) by (eexists; vm_compute; reflexivity).
    assert (Hc : exists cs', cexecs env9 nosubs noxi 20 cs0 prog4 = Some cs' /\ cs_regw cs' = [(RIsa "R" "d" false, 10)]).
    { eexists. split; [vm_compute; reflexivity | reflexivity]. }
    destruct Hl as (eff & Hl). destruct Hc as (cs' & Hc & Hr).
    destruct (simulated rw only_s ilsubs env9 prog4 _ _ eff cs' im_ok_only_s prog4_in_fragment Hl Hc) as (ms' & Hrun & Hrel).
    exists eff, cs', ms'. repeat (split; [assumption|]).
    destruct Hrel as ((_ & Hregw & _) & _). congruence.
  Qed.

  (* fifth program: accumulate into a read-write operand, a predicate result
        RxV += RsV * RtV;            (multiply-accumulate)
        PdV = RxV > siV;             (RxV read after its own write: the value written) *)
  Definition prog5 : cstmts :=
    SCons (SExpr (EAssign AAdd (reg "R" "x") (EBin Ast.BMul (reg "R" "s") (reg "R" "t"))))
   (SCons (SExpr (EAssign AAssign (reg "P" "d") (EBin BGt (reg "R" "x") (imm "s")))) SNil).
  Definition rw5 : regwidth := fun r => match r with RIsa "P" _ _ => 8%N | _ => 32%N end.
  Definition env5 : cenv :=
    mkce (fun r => if regop_eqb r (RIsa "R" "x" false) then 10 else if regop_eqb r (RIsa "R" "s" false) then 3
                   else if regop_eqb r (RIsa "R" "t" false) then 4 else 0)
         (fun _ => 0) (fun l => if String.eqb l "s" then 20 else 0) 0 (fun _ => 0).
  Example prog5_in_fragment : sfrags rw5 only_s [] [] prog5 [] [].
  Proof.
    unfold prog5.
    eapply sfs_cons.
    { eapply (sf_casg_reg rw5 only_s _ _ AAdd "R" "x" ARW); [auto | left; reflexivity | reflexivity | reflexivity |].
      apply pf_bin; [unfold is_folding_op; auto | | ].
      - eapply (pf_reg _ _ _ "R" "s" AR); [left; reflexivity | reflexivity | reflexivity].
      - eapply (pf_reg _ _ _ "R" "t" AR); [left; reflexivity | reflexivity | reflexivity]. }
    eapply sfs_cons; [|apply sfs_nil].
    eapply (sf_asg_reg rw5 only_s _ _ "P" "d" AW); [right; left; reflexivity | reflexivity | reflexivity |].
    apply pf_bin; [unfold is_folding_op, is_cmp; auto 10 | | apply pf_imm; reflexivity].
    eapply (pf_reg _ _ _ "R" "x" ARW); [left; reflexivity | reflexivity | reflexivity].
  Qed.
  Example prog5_lowered :
    tlower cfg prog5 =
    OK (ESeq (ESetL "s" (PImm "s" true 32))
       (ESeq (EWriteReg (RIsa "R" "x" false)
                (PBin RzIL.BAdd (PReg (RIsa "R" "x" false) false)
                   (PBin RzIL.BMul (PReg (RIsa "R" "s" false) false) (PReg (RIsa "R" "t" false) false))))
             (EWriteReg (RIsa "P" "d" false)
                (PIte (PCmp CSgt (PReg (RIsa "R" "x" false) false) (PVarL "s")) (PBv true 8 1) (PBv true 8 0)))), 0%N).
  Proof. vm_compute. reflexivity. Qed.
  Example prog5_simulated : forall ilsubs,
    exists eff cs' ms', tlower cfg prog5 = OK (eff, 0%N) /\
      cexecs env5 nosubs noxi 20 cs0 prog5 = Some cs' /\ runs rw5 ilsubs eff (ms_of env5) ms' /\
      srel only_s env5 [] [] cs' ms' /\ rnew ms' = [(RIsa "P" "d" false, 1); (RIsa "R" "x" false, 22)].
  Proof.
    intros ilsubs.
    assert (Hc : exists cs', cexecs env5 nosubs noxi 20 cs0 prog5 = Some cs' /\
                             cs_regw cs' = [(RIsa "P" "d" false, 1); (RIsa "R" "x" false, 22)]).
    { eexists. split; [vm_compute; reflexivity | reflexivity]. }
    destruct Hc as (cs' & Hc & Hr).
    destruct (simulated rw5 only_s ilsubs env5 prog5 [] [] _ cs' im_ok_only_s prog5_in_fragment prog5_lowered Hc) as (ms' & Hrun & Hrel).
    eexists. exists cs', ms'. split; [exact prog5_lowered|]. repeat (split; [assumption|]).
    destruct Hrel as ((_ & Hregw & _) & _). congruence.
  Qed.

  (* Why register operands of class N are in the fragment only as .new operands (NsN).  For the (ungrammatical)
     spelling NsV the two sides name DIFFERENT operand handles: CSem reads the old value of ISA2REG(hi,'s') of
     class N, the model emits READ_REG(NREG2OP(bundle,'s'), false): with an old register file that tells the
     two handles apart the values differ. *)
  Definition envN : cenv :=
    mkce (fun r => match r with RNreg _ => 1 | _ => 2 end) (fun _ => 0) (fun _ => 0) 0 (fun _ => 0).
  Definition nsv : cstmts := SCons (SExpr (EAssign AAssign (reg "R" "d") (reg "N" "s"))) SNil.
  Example nreg_not_new_refuted :
    option_map cs_regw (cexecs envN nosubs noxi 20 cs0 nsv) = Some [(RIsa "R" "d" false, 2)] /\
    tlower cfg nsv = OK (EWriteReg (RIsa "R" "d" false) (PReg (RNreg "s") false), 0%N) /\
    forall e h, tlower cfg nsv = OK (e, h) ->
      option_map rnew (exec rw (fun _ => None) 20 e (ms_of envN)) = Some [(RIsa "R" "d" false, 1)].
  Proof.
    split; [vm_compute; reflexivity|]. split; [vm_compute; reflexivity|].
    intros e h H. vm_compute in H. injection H as <- _. vm_compute. reflexivity.
  Qed.
End Example.
Print Assumptions Example.prog_simulated.
Print Assumptions Example.prog2_simulated.
Print Assumptions Example.prog3_simulated.
Print Assumptions Example.prog4_simulated.
Print Assumptions Example.prog5_simulated.
Print Assumptions Example.redeclaration_counterexample.
Print Assumptions Example.imm_local_clash_refuted.
Print Assumptions Example.nreg_not_new_refuted.
