(* C06: soundness of the temporaries-written-before-read analysis of sem/TmpCheck.v
   (is_tmp, pure_ok, tdef, tdefS, clean, agree_off, stale_compat, stale_same_sorts, stale_fewer).

   From SortSound.v: pure_ind', app_go, lookup_cons, calls_opaque, exec_locals_mono, and exec_ind, the induction
   over successful runs whose rules, in their order, are the cases of tdefS_sound_aux.

   Checker laws
     tdef_incl / tdefS_incl      tdef D e = Some D'  ==>  incl D D'
     tdef_mono / tdefS_mono      incl D1 D2, tdef D1 e = Some D1'  ==>  tdef D2 e = Some D2' with incl D1' D2'
     pure_ok_mono                incl D1 D2, pure_ok D1 p = true  ==>  pure_ok D2 p = true
     tdefS_tdef                  tdefS subs n D e = tdef D e when every call of e is unknown to subs
   Pures
     eval_agree                  agree_off D s1 s2, pure_ok D p = true  ==>  eval s1 lets p = eval s2 lets p
   Effects: every effect (ERepeat included), every fuel, no bound; tdefS: callees known to subs included (their
   instantiated bodies are analysed, call depth n); tdef: under calls_opaque subs e, as in SortSound.v.
     tdefS_sound_aux             the core, on lists of locals: the reference run from s2 succeeds, agree_off D s1 s2,
                                 no local of s1 clashes in sort with the reference result  ==>  the run from s1
                                 succeeds, agree_off D' s1' s2', and every local of s1' comes from s1 or s2'
     tdefS_sound / tdef_sound    reference run from s2 succeeds, agree_off D s1 s2, stale_compat D s1 s2'
                                 ==>  run from s1 succeeds and agree_off D' s1' s2'
     tdefS_sound_fewer / tdef_sound_fewer
                                 NO sort hypothesis: run from s1 succeeds, s2 holds fewer stale temporaries
                                 ==>  run from s2 succeeds, agree_off D' s1' s2' (tdefS: and s2' binds nothing
                                 that s1' does not bind with the same sort)
     tdefS_sound_exact           for such s2:  run from s1 succeeds  <->  run from s2 succeeds /\ stale_compat D s1 s2'
     tdefS_noninterference / tdef_noninterference
                                 agree_off D s1 s2 and equally-sorted stale temporaries (arbitrary VALUES)
                                 ==>  both runs fail, or both succeed with agree_off D' and equally-sorted again
     run_then_clean_run, clean_run_then_run, run_iff_clean_run (tdef_run_then_clean_run, tdef_clean_run_then_run)
                                 the same against clean D s
     tdef_fresh_run_represents / tdefS_fresh_run_represents, tdef_run_represented_by_fresh
                                 the case D = []: a run from a state without temporaries stands for the runs
                                 from all states with extra temporaries of compatible sort, and conversely
   False (module Examples): non-interference with no sort hypothesis (unconditional_noninterference_false);
   "clean run succeeds => run succeeds" (clean_run_does_not_imply_run): ESetL checks the sort of the OLD value, so
   a stale temporary of another sort makes the write fail (stale_sort_clash).  tdef without calls_opaque
   (known_callee_reads_temporary): a known callee body runs in the caller's locals. *)
From Coq Require Import ZArith NArith List Bool String Ascii Lia.
From RZ.lib Require Import BV.
From RZ.sem Require Import RzIL.
From RZ.proofs Require Import SortSound.
From RZ.sem Require Import TmpCheck.
Import ListNotations.
Local Open Scope string_scope.

Lemma inb_spec x D : inb x D = true <-> In x D.
Proof.
  induction D as [|y D IH]; cbn [inb In].
  - split; [discriminate | contradiction].
  - rewrite orb_true_iff, IH, String.eqb_eq. split; intros [H|H]; auto.
Qed.

Lemma inb_false x D : inb x D = false <-> ~ In x D.
Proof.
  rewrite <- inb_spec. destruct (inb x D); split; intro H; try reflexivity; try discriminate.
  exfalso; apply H; reflexivity.
Qed.

Lemma meet_spec x D1 D2 : In x (meet D1 D2) <-> In x D1 /\ In x D2.
Proof. unfold meet. rewrite filter_In, inb_spec. reflexivity. Qed.

Lemma meet_mono A1 B1 A2 B2 : incl A1 A2 -> incl B1 B2 -> incl (meet A1 B1) (meet A2 B2).
Proof. intros HA HB x H. apply meet_spec in H. apply meet_spec. destruct H; auto. Qed.

Lemma pure_ok_mono D1 D2 : incl D1 D2 -> forall p, pure_ok D1 p = true -> pure_ok D2 p = true.
Proof.
  intros Hi p. induction p using pure_ind'; cbn [pure_ok]; intro Hp; try reflexivity;
    try (rewrite ?andb_true_iff in Hp |- *; tauto).
  - (* PVarL *)
    apply orb_true_iff in Hp. apply orb_true_iff. destruct Hp as [Hp|Hp]; [left; exact Hp|].
    right. apply inb_spec, Hi, inb_spec, Hp.
  - (* PApp *)
    match goal with HF : Forall _ _ |- _ => rename HF into HFl end.
    induction HFl as [|q l Hq HFl IHl]; [reflexivity|].
    cbn [forallb] in Hp |- *. apply andb_true_iff in Hp. destruct Hp as [Hp1 Hp2].
    apply andb_true_iff. split; [exact (Hq Hp1) | exact (IHl Hp2)].
Qed.

Lemma args_ok_mono D1 D2 args :
  incl D1 D2 -> forallb (arg_ok D1) args = true -> forallb (arg_ok D2) args = true.
Proof.
  intros Hi. induction args as [|a args IH]; [reflexivity|].
  cbn [forallb]. intro H. apply andb_true_iff in H. destruct H as [Ha Hr].
  apply andb_true_iff. split; [|exact (IH Hr)].
  destruct a as [p|r|t]; cbn [arg_ok] in Ha |- *; [|reflexivity|reflexivity].
  eapply pure_ok_mono; eassumption.
Qed.

(* one-step unfolding of the nested fixpoint *)
Lemma tdefS_eq subs n D e :
  tdefS subs n D e =
  match e with
  | ESetL x p => if pure_ok D p then Some (if is_tmp x then x :: D else D) else None
  | EWriteReg _ p => if pure_ok D p then Some D else None
  | EStore a v => if pure_ok D a && pure_ok D v then Some D else None
  | ESeq a b => match tdefS subs n D a with Some D1 => tdefS subs n D1 b | None => None end
  | EBranch c t f =>
      if pure_ok D c then
        match tdefS subs n D t, tdefS subs n D f with Some D1, Some D2 => Some (meet D1 D2) | _, _ => None end
      else None
  | ERepeat c b => if pure_ok D c then match tdefS subs n D b with Some _ => Some D | None => None end else None
  | ENop | EEmpty => Some D
  | ECall f args =>
      match subs f with
      | Some (ps, body) =>
          match n with
          | O => None
          | S m => tdefS subs m D (subst_eff (bind_params ps args) body)
          end
      | None => if forallb (arg_ok D) args then Some D else None
      end
  | EPlugin _ args => if forallb (arg_ok D) args then Some D else None
  end.
Proof. destruct n; destruct e; reflexivity. Qed.

Ltac unf H := rewrite tdefS_eq in H; cbv beta iota in H.

Section Laws.
  Variable subs : subenv.

  (* the analysis only ever adds temporaries *)
  Lemma tdefS_incl : forall n e D D', tdefS subs n D e = Some D' -> incl D D'.
  Proof.
    induction n as [n IHcall] using lt_wf_ind.
    induction e as [x p|r p|a v|e1 IHe1 e2 IHe2|c e1 IHe1 e2 IHe2|c e IHe| | |f args|h args];
      intros D D' H; unf H.
    - destruct (pure_ok D p); [|discriminate H]. injection H as <-.
      destruct (is_tmp x); [apply incl_tl|]; apply incl_refl.
    - destruct (pure_ok D p); [|discriminate H]. injection H as <-. apply incl_refl.
    - destruct (pure_ok D a && pure_ok D v); [|discriminate H]. injection H as <-. apply incl_refl.
    - destruct (tdefS subs n D e1) as [D1|] eqn:T1; [|discriminate H].
      eapply incl_tran; [eapply IHe1; eassumption | eapply IHe2; eassumption].
    - destruct (pure_ok D c); [|discriminate H].
      destruct (tdefS subs n D e1) as [D1|] eqn:T1; [|discriminate H].
      destruct (tdefS subs n D e2) as [D2|] eqn:T2; [|discriminate H]. injection H as <-.
      intros y Hy. apply meet_spec. split; [eapply IHe1 | eapply IHe2]; eassumption.
    - destruct (pure_ok D c); [|discriminate H].
      destruct (tdefS subs n D e); [|discriminate H]. injection H as <-. apply incl_refl.
    - injection H as <-. apply incl_refl.
    - injection H as <-. apply incl_refl.
    - destruct (subs f) as [[ps body]|].
      + destruct n as [|m]; [discriminate H|]. exact (IHcall m (Nat.lt_succ_diag_r m) _ _ _ H).
      + destruct (forallb (arg_ok D) args); [|discriminate H]. injection H as <-. apply incl_refl.
    - destruct (forallb (arg_ok D) args); [|discriminate H]. injection H as <-. apply incl_refl.
  Qed.

  (* knowing more temporaries written, the analysis accepts at least as much and concludes at least as much *)
  Lemma tdefS_mono : forall n e D1 D2 D1', incl D1 D2 -> tdefS subs n D1 e = Some D1' ->
    exists D2', tdefS subs n D2 e = Some D2' /\ incl D1' D2'.
  Proof.
    induction n as [n IHcall] using lt_wf_ind.
    induction e as [x p|r p|a v|e1 IHe1 e2 IHe2|c e1 IHe1 e2 IHe2|c e IHe| | |f args|h args];
      intros D1 D2 D1' Hi H; unf H; rewrite tdefS_eq; cbv beta iota.
    - destruct (pure_ok D1 p) eqn:Hp; [|discriminate H]. injection H as <-.
      rewrite (pure_ok_mono _ _ Hi _ Hp). eexists; split; [reflexivity|].
      destruct (is_tmp x); [|exact Hi]. intros y [Hy|Hy]; [left; exact Hy | right; exact (Hi _ Hy)].
    - destruct (pure_ok D1 p) eqn:Hp; [|discriminate H]. injection H as <-.
      rewrite (pure_ok_mono _ _ Hi _ Hp). eexists; split; [reflexivity | exact Hi].
    - destruct (pure_ok D1 a && pure_ok D1 v) eqn:Hp; [|discriminate H]. injection H as <-.
      apply andb_true_iff in Hp. destruct Hp as [Hpa Hpv].
      rewrite (pure_ok_mono _ _ Hi _ Hpa), (pure_ok_mono _ _ Hi _ Hpv). eexists; split; [reflexivity | exact Hi].
    - destruct (tdefS subs n D1 e1) as [M1|] eqn:T1; [|discriminate H].
      destruct (IHe1 _ _ _ Hi T1) as (M2 & T2 & Him). rewrite T2. exact (IHe2 _ _ _ Him H).
    - destruct (pure_ok D1 c) eqn:Hp; [|discriminate H]. rewrite (pure_ok_mono _ _ Hi _ Hp).
      destruct (tdefS subs n D1 e1) as [A1|] eqn:T1; [|discriminate H].
      destruct (tdefS subs n D1 e2) as [B1|] eqn:T2; [|discriminate H]. injection H as <-.
      destruct (IHe1 _ _ _ Hi T1) as (A2 & TA & HA). destruct (IHe2 _ _ _ Hi T2) as (B2 & TB & HB).
      rewrite TA, TB. eexists; split; [reflexivity | apply meet_mono; assumption].
    - destruct (pure_ok D1 c) eqn:Hp; [|discriminate H]. rewrite (pure_ok_mono _ _ Hi _ Hp).
      destruct (tdefS subs n D1 e) as [A1|] eqn:T1; [|discriminate H]. injection H as <-.
      destruct (IHe _ _ _ Hi T1) as (A2 & TA & HA). rewrite TA. eexists; split; [reflexivity | exact Hi].
    - injection H as <-. eexists; split; [reflexivity | exact Hi].
    - injection H as <-. eexists; split; [reflexivity | exact Hi].
    - destruct (subs f) as [[ps body]|].
      + destruct n as [|m]; [discriminate H|]. exact (IHcall m (Nat.lt_succ_diag_r m) _ _ _ _ Hi H).
      + destruct (forallb (arg_ok D1) args) eqn:Ha; [|discriminate H]. injection H as <-.
        rewrite (args_ok_mono _ _ _ Hi Ha). eexists; split; [reflexivity | exact Hi].
    - destruct (forallb (arg_ok D1) args) eqn:Ha; [|discriminate H]. injection H as <-.
      rewrite (args_ok_mono _ _ _ Hi Ha). eexists; split; [reflexivity | exact Hi].
  Qed.

  (* where every call is to a callee [subs] does not know, the environment-free checker is the same analysis *)
  Lemma tdefS_tdef n : forall e D, calls_opaque subs e -> tdefS subs n D e = tdef D e.
  Proof.
    induction e as [x p|r p|a v|e1 IHe1 e2 IHe2|c e1 IHe1 e2 IHe2|c e IHe| | |f args|h args];
      intros D Hop; rewrite tdefS_eq; cbn [tdef calls_opaque] in Hop |- *; try reflexivity.
    - destruct Hop as [H1 H2]. rewrite (IHe1 _ H1). destruct (tdef D e1); [apply IHe2; exact H2 | reflexivity].
    - destruct Hop as [H1 H2]. rewrite (IHe1 _ H1), (IHe2 _ H2). reflexivity.
    - rewrite (IHe _ Hop). reflexivity.
    - rewrite Hop. reflexivity.
  Qed.
End Laws.

Lemma calls_opaque_none e : calls_opaque (fun _ => None) e.
Proof. induction e; cbn [calls_opaque]; auto. Qed.

Theorem tdef_incl : forall e D D', tdef D e = Some D' -> incl D D'.
Proof.
  intros e D D' H. rewrite <- (tdefS_tdef (fun _ => None) 0 e D (calls_opaque_none e)) in H.
  eapply tdefS_incl; exact H.
Qed.

Theorem tdef_mono : forall e D1 D2 D1', incl D1 D2 -> tdef D1 e = Some D1' ->
  exists D2', tdef D2 e = Some D2' /\ incl D1' D2'.
Proof.
  intros e D1 D2 D1' Hi H. rewrite <- (tdefS_tdef (fun _ => None) 0 e _ (calls_opaque_none e)) in H.
  destruct (tdefS_mono _ _ _ _ _ _ Hi H) as (D2' & H2 & Hi'). exists D2'.
  rewrite <- (tdefS_tdef (fun _ => None) 0 e _ (calls_opaque_none e)). auto.
Qed.

Lemma same_machine_refl s : same_machine s s.
Proof. unfold same_machine. repeat split. Qed.
Lemma same_machine_sym s1 s2 : same_machine s1 s2 -> same_machine s2 s1.
Proof. unfold same_machine. intros (H1 & H2 & H3 & H4 & H5 & H6 & H7 & H8). repeat split; symmetry; assumption. Qed.
Lemma same_machine_trans s1 s2 s3 : same_machine s1 s2 -> same_machine s2 s3 -> same_machine s1 s3.
Proof.
  unfold same_machine. intros (H1 & H2 & H3 & H4 & H5 & H6 & H7 & H8) (K1 & K2 & K3 & K4 & K5 & K6 & K7 & K8).
  repeat split; etransitivity; eassumption.
Qed.

Lemma agree_off_refl D s : agree_off D s s.
Proof. split; [apply same_machine_refl | reflexivity]. Qed.
Lemma agree_off_sym D s1 s2 : agree_off D s1 s2 -> agree_off D s2 s1.
Proof. intros [Hm Hl]. split; [apply same_machine_sym; exact Hm | intros x Hx; symmetry; apply Hl; exact Hx]. Qed.
Lemma agree_off_trans D s1 s2 s3 : agree_off D s1 s2 -> agree_off D s2 s3 -> agree_off D s1 s3.
Proof.
  intros [Hm Hl] [Km Kl]. split; [eapply same_machine_trans; eassumption|].
  intros x Hx. rewrite (Hl x Hx). apply Kl; exact Hx.
Qed.
(* agreeing off a larger set is the stronger statement *)
Lemma agree_off_weaken D D' s1 s2 : incl D' D -> agree_off D s1 s2 -> agree_off D' s1 s2.
Proof. intros Hi [Hm Hl]. split; [exact Hm|]. intros x [Hx|Hx]; apply Hl; [left; exact Hx | right; exact (Hi _ Hx)]. Qed.

Lemma agree_set_local D s1 s2 x v :
  agree_off D s1 s2 -> agree_off (if is_tmp x then x :: D else D) (set_local s1 x v) (set_local s2 x v).
Proof.
  intros [Hm Hl]. split; [exact Hm|].
  intros y Hy. cbn [locals set_local]. rewrite !lookup_cons. destruct (String.eqb y x) eqn:E; [reflexivity|].
  apply Hl. destruct Hy as [Hy|Hy]; [left; exact Hy|].
  destruct (is_tmp x); [|right; exact Hy].
  destruct Hy as [Hy|Hy]; [|right; exact Hy]. subst y. rewrite String.eqb_refl in E. discriminate E.
Qed.
Lemma agree_set_reg D s1 s2 r v : agree_off D s1 s2 -> agree_off D (set_reg s1 r v) (set_reg s2 r v).
Proof.
  intros [Hm Hl]. split; [|exact Hl]. unfold same_machine in *.
  destruct Hm as (H1 & H2 & H3 & H4 & H5 & H6 & H7 & H8).
  cbn [set_reg rold rnew rnew0 imms pktaddr mem mem0 events]. rewrite H2. repeat split; assumption.
Qed.
Lemma agree_set_mem D s1 s2 m : agree_off D s1 s2 -> agree_off D (set_mem s1 m) (set_mem s2 m).
Proof.
  intros [Hm Hl]. split; [|exact Hl]. unfold same_machine in *.
  destruct Hm as (H1 & H2 & H3 & H4 & H5 & H6 & H7 & H8).
  cbn [set_mem rold rnew rnew0 imms pktaddr mem mem0 events]. repeat split; assumption.
Qed.
Lemma agree_add_event D s1 s2 h a : agree_off D s1 s2 -> agree_off D (add_event s1 h a) (add_event s2 h a).
Proof.
  intros [Hm Hl]. split; [|exact Hl]. unfold same_machine in *.
  destruct Hm as (H1 & H2 & H3 & H4 & H5 & H6 & H7 & H8).
  cbn [add_event rold rnew rnew0 imms pktaddr mem mem0 events]. rewrite H8. repeat split; assumption.
Qed.

Section Pures.
  Variable rw : regwidth.

  Lemma read_bytes_same s1 s2 : mem s1 = mem s2 -> mem0 s1 = mem0 s2 ->
    forall n a, read_bytes s1 a n = read_bytes s2 a n.
  Proof.
    intros Hm H0. induction n as [|n IH]; intro a; cbn [read_bytes]; [reflexivity|].
    rewrite IH. unfold read_byte. rewrite Hm, H0. reflexivity.
  Qed.
  Lemma read_reg_same s1 s2 r n : same_machine s1 s2 -> read_reg rw s1 r n = read_reg rw s2 r n.
  Proof.
    intros (H1 & H2 & H3 & H4 & H5 & H6 & H7 & H8). unfold read_reg. rewrite H1, H2, H3. reflexivity.
  Qed.

  Definition eval_same (D : list string) (s1 s2 : mstate) (p : pure) : Prop :=
    forall lets, pure_ok D p = true -> eval rw s1 lets p = eval rw s2 lets p.

  Lemma app_go_same D s1 s2 h (l : list pure) lets :
    Forall (eval_same D s1 s2) l -> forallb (pure_ok D) l = true ->
    forall acc, app_go (eval rw s1 lets) (app_sem h) l acc = app_go (eval rw s2 lets) (app_sem h) l acc.
  Proof.
    intro HF. induction HF as [|x l Hx HF IH]; intros Hok acc; [reflexivity|]. cbn [app_go].
    cbn [forallb] in Hok. apply andb_true_iff in Hok. destruct Hok as [Hox Hol].
    rewrite (Hx lets Hox). destruct (eval rw s2 lets x) as [v|]; [|reflexivity]. apply IH. exact Hol.
  Qed.

  (* the value of a pure does not depend on the temporaries it does not read *)
  Theorem eval_agree : forall D s1 s2 lets p,
    agree_off D s1 s2 -> pure_ok D p = true -> eval rw s1 lets p = eval rw s2 lets p.
  Proof.
    intros D s1 s2 lets p [Hm Hl]. pose proof Hm as (H1 & H2 & H3 & H4 & H5 & H6 & H7 & H8).
    revert lets. change (eval_same D s1 s2 p).
    induction p using pure_ind'; intros lets Hok; cbn [pure_ok] in Hok;
      repeat (apply andb_true_iff in Hok; destruct Hok as [Hok ?]); cbn [eval];
      try reflexivity;
      (* the pure_ok of a sub-term is what its induction hypothesis asks for *)
      repeat match goal with
      | IH : eval_same _ _ _ ?q, Hq : pure_ok _ ?q = true |- _ => rewrite (IH lets Hq); clear IH
      end;
      try reflexivity.
    - (* PVarL *) apply Hl. apply orb_true_iff in Hok. destruct Hok as [Hok|Hok].
      + left. destruct (is_tmp x); [discriminate Hok | reflexivity].
      + right. apply inb_spec. exact Hok.
    - (* PLet *) destruct (eval rw s2 lets p1) as [v|]; [|reflexivity]. apply IHp2. assumption.
    - (* PReg *) rewrite (read_reg_same s1 s2 r n Hm). reflexivity.
    - (* PImm *) rewrite H4. reflexivity.
    - (* PPktAddr *) rewrite H5. reflexivity.
    - (* PLoad *) destruct (eval rw s2 lets p) as [[w0 x|]|]; try reflexivity.
      rewrite (read_bytes_same s1 s2 H6 H7). reflexivity.
    - (* PApp *) match goal with HF : Forall _ _ |- _ => exact (app_go_same D s1 s2 h l lets HF Hok []) end.
  Qed.
End Pures.
Print Assumptions eval_agree.

(* Three relations on lists of locals, for tdefS_sound_aux.  A run only adds locals or rebinds them at the
   same sort (lmono).  The other start state must not clash in sort with what the reference run ends with
   (compat): ESetL checks the sort of the old value.  To hand compat on to the second half of a sequence one
   has to know where the locals of the other run's intermediate state come from (origin; compat_next). *)
(* l' binds everything l binds, to values of the same sort (what exec_locals_mono gives) *)
Definition lmono (l l' : list (string * val)) : Prop :=
  forall x v, lookup x l = Some v -> exists v', lookup x l' = Some v' /\ sort_of_val v' = sort_of_val v.
(* no name is bound to values of different sorts in the two lists *)
Definition compat (l1 l2 : list (string * val)) : Prop :=
  forall x v1 v2, lookup x l1 = Some v1 -> lookup x l2 = Some v2 -> sort_of_val v1 = sort_of_val v2.
(* every binding of l1' is inherited from l1 or shared with l2', up to the sort *)
Definition origin (l1 l1' l2' : list (string * val)) : Prop :=
  forall x v, lookup x l1' = Some v ->
    (exists v0, lookup x l1 = Some v0 /\ sort_of_val v0 = sort_of_val v) \/
    (exists v2, lookup x l2' = Some v2 /\ sort_of_val v2 = sort_of_val v).

Lemma lmono_refl l : lmono l l.
Proof. intros x v H. eauto. Qed.
Lemma origin_refl l l2 : origin l l l2.
Proof. intros x v H. left. eauto. Qed.
Lemma origin_set l1 l2 x v : origin l1 ((x, v) :: l1) ((x, v) :: l2).
Proof. intros y u Hy. rewrite lookup_cons in Hy |- *. destruct (String.eqb y x); [right | left]; eauto. Qed.
Lemma compat_mid l1 l2m l2' : compat l1 l2' -> lmono l2m l2' -> compat l1 l2m.
Proof.
  intros Hc Hm x v1 vm Hx1 Hxm. destruct (Hm _ _ Hxm) as (v' & Hx' & Hs). rewrite (Hc _ _ _ Hx1 Hx'). exact Hs.
Qed.
Lemma compat_next l1 l1m l2m l2' : compat l1 l2' -> lmono l2m l2' -> origin l1 l1m l2m -> compat l1m l2'.
Proof.
  intros Hc Hm Ho x v1m v2' Hx1 Hx2. destruct (Ho _ _ Hx1) as [(v0 & Hx0 & Hs)|(vm & Hxm & Hs)].
  - rewrite <- Hs. exact (Hc _ _ _ Hx0 Hx2).
  - destruct (Hm _ _ Hxm) as (v' & Hx' & Hs'). rewrite Hx2 in Hx'. injection Hx' as <-. congruence.
Qed.
Lemma origin_trans l1 l1m l1' l2m l2' :
  origin l1 l1m l2m -> origin l1m l1' l2' -> lmono l2m l2' -> origin l1 l1' l2'.
Proof.
  intros Ho1 Ho2 Hm x v Hx. destruct (Ho2 _ _ Hx) as [(vm & Hxm & Hs)|Hr]; [|right; exact Hr].
  destruct (Ho1 _ _ Hxm) as [(v0 & Hx0 & Hs0)|(v2 & Hx2 & Hs2)].
  - left. exists v0. split; [exact Hx0 | congruence].
  - right. destruct (Hm _ _ Hx2) as (v' & Hx' & Hs'). exists v'. split; [exact Hx' | congruence].
Qed.

Section Effects.
  Variable rw : regwidth.
  Variable subs : subenv.

  (* The core: s2 is the reference run.  If it succeeds and nothing s1 holds clashes in sort with what the
     reference run ends with, the run from s1 succeeds too and the results agree off D'.
     By induction over the reference run; [origin] records where the locals of the other run come from, which
     is what lets [compat] with the FINAL reference state be handed on to the second half of a sequence. *)
  Lemma tdefS_sound_aux : forall fuel n e D D' s1 s2 s2',
    tdefS subs n D e = Some D' -> agree_off D s1 s2 ->
    exec rw subs fuel e s2 = Some s2' -> compat (locals s1) (locals s2') ->
    exists s1', exec rw subs fuel e s1 = Some s1' /\ agree_off D' s1' s2' /\
                origin (locals s1) (locals s1') (locals s2').
  Proof.
    intros fuel n e D D' s1 s2 s2' Htd Hag He. revert n D D' s1 Htd Hag. revert fuel e s2 s2' He.
    apply (exec_ind rw subs (fun k e s2 s2' => forall n D D' s1,
             tdefS subs n D e = Some D' -> agree_off D s1 s2 -> compat (locals s1) (locals s2') ->
             exists s1', exec rw subs k e s1 = Some s1' /\ agree_off D' s1' s2' /\
                         origin (locals s1) (locals s1') (locals s2')));
      (* ENop, EEmpty *)
      try solve [intros k s2 n D D' s1 Htd Hag _; unf Htd; injection Htd as <-;
                 exists s1; split; [reflexivity|]; split; [exact Hag | apply origin_refl]].
    - (* ESetL: the run-time sort check of the write passes in s1 because of compat *)
      intros k x p s2 v Ev _ n D D' s1 Htd Hag Hc. unf Htd. cbn [exec].
      destruct (pure_ok D p) eqn:Hp; [|discriminate Htd]. injection Htd as <-.
      rewrite (eval_agree rw D s1 s2 [] p Hag Hp), Ev.
      exists (set_local s1 x v). split; [|split; [apply agree_set_local; exact Hag | apply origin_set]].
      destruct (lookup x (locals s1)) as [old|] eqn:El; [|reflexivity].
      rewrite (Hc x old v El), sort_eqb_refl; [reflexivity|].
      cbn [locals set_local]. rewrite lookup_cons, String.eqb_refl. reflexivity.
    - (* EWriteReg *)
      intros k r p s2 v Ev n D D' s1 Htd Hag _. unf Htd. cbn [exec].
      destruct (pure_ok D p) eqn:Hp; [|discriminate Htd]. injection Htd as <-.
      rewrite (eval_agree rw D s1 s2 [] p Hag Hp), Ev, N.eqb_refl.
      eexists. split; [reflexivity|]. split; [apply agree_set_reg; exact Hag | apply origin_refl].
    - (* EStore *)
      intros k a v s2 wa x w y Ea Ev n D D' s1 Htd Hag _. unf Htd. cbn [exec].
      destruct (pure_ok D a && pure_ok D v) eqn:Hp; [|discriminate Htd]. injection Htd as <-.
      apply andb_true_iff in Hp. destruct Hp as [Hpa Hpv].
      rewrite (eval_agree rw D s1 s2 [] a Hag Hpa), (eval_agree rw D s1 s2 [] v Hag Hpv), Ea, Ev.
      pose proof Hag as [(_ & _ & _ & _ & _ & H6 & _) _]. rewrite H6.
      eexists. split; [reflexivity|]. split; [apply agree_set_mem; exact Hag | apply origin_refl].
    - (* ESeq *)
      intros k a b s2 s2m s2' _ E2 IH1 IH2 n D D' s1 Htd Hag Hc. unf Htd. cbn [exec].
      destruct (tdefS subs n D a) as [D1|] eqn:T1; [|discriminate Htd].
      pose proof (exec_locals_mono rw subs _ _ _ _ E2) as Hm.
      destruct (IH1 n D D1 s1 T1 Hag (compat_mid _ _ _ Hc Hm)) as (s1m & X1 & Ag1 & Or1). rewrite X1.
      destruct (IH2 n D1 D' s1m Htd Ag1 (compat_next _ _ _ _ Hc Hm Or1)) as (s1' & X2 & Ag2 & Or2).
      exists s1'. split; [exact X2|]. split; [exact Ag2|]. exact (origin_trans _ _ _ _ _ Or1 Or2 Hm).
    - (* EBranch: the result is the meet, so agreement off either arm's result is more than needed *)
      intros k c t f b s2 s2' Ec _ IH n D D' s1 Htd Hag Hc. unf Htd. cbn [exec].
      destruct (pure_ok D c) eqn:Hp; [|discriminate Htd].
      destruct (tdefS subs n D t) as [D1|] eqn:T1; [|discriminate Htd].
      destruct (tdefS subs n D f) as [D2|] eqn:T2; [|discriminate Htd]. injection Htd as <-.
      rewrite (eval_agree rw D s1 s2 [] c Hag Hp), Ec.
      destruct b; [destruct (IH n D D1 s1 T1 Hag Hc) as (s1' & X & Ag & Or) |
                   destruct (IH n D D2 s1 T2 Hag Hc) as (s1' & X & Ag & Or)];
        (exists s1'; split; [exact X|]; split; [|exact Or]; eapply agree_off_weaken; [|exact Ag]);
        intros y Hy; apply meet_spec in Hy; tauto.
    - (* ERepeat, one more iteration: the state after the body agrees off D1 >= D, hence off D: the loop is
         re-entered from D *)
      intros k c b s2 s2m s2' Ec _ E2 IH1 IH2 n D D' s1 Htd Hag Hc. pose proof Htd as Htd0. unf Htd. cbn [exec].
      destruct (pure_ok D c) eqn:Hp; [|discriminate Htd].
      destruct (tdefS subs n D b) as [D1|] eqn:T1; [|discriminate Htd]. injection Htd as <-.
      rewrite (eval_agree rw D s1 s2 [] c Hag Hp), Ec.
      pose proof (exec_locals_mono rw subs _ _ _ _ E2) as Hm.
      destruct (IH1 n D D1 s1 T1 Hag (compat_mid _ _ _ Hc Hm)) as (s1m & X1 & Ag1 & Or1). rewrite X1.
      assert (Ag1' : agree_off D s1m s2m) by (eapply agree_off_weaken; [eapply tdefS_incl; exact T1 | exact Ag1]).
      destruct (IH2 n D D s1m Htd0 Ag1' (compat_next _ _ _ _ Hc Hm Or1)) as (s1' & X2 & Ag2 & Or2).
      exists s1'. split; [exact X2|]. split; [exact Ag2|]. exact (origin_trans _ _ _ _ _ Or1 Or2 Hm).
    - (* ERepeat, exit *)
      intros k c b s2 Ec n D D' s1 Htd Hag _. unf Htd. cbn [exec].
      destruct (pure_ok D c) eqn:Hp; [|discriminate Htd].
      destruct (tdefS subs n D b); [|discriminate Htd]. injection Htd as <-.
      rewrite (eval_agree rw D s1 s2 [] c Hag Hp), Ec.
      exists s1. split; [reflexivity|]. split; [exact Hag | apply origin_refl].
    - (* ECall, known callee: its instantiated body was analysed, one level down *)
      intros k f args ps body s2 s2' Ef _ IH n D D' s1 Htd Hag Hc. unf Htd. cbn [exec]. rewrite Ef in Htd |- *.
      destruct n as [|m]; [discriminate Htd|]. exact (IH m D D' s1 Htd Hag Hc).
    - (* ECall, unknown callee *)
      intros k f args s2 Ef n D D' s1 Htd Hag _. unf Htd. cbn [exec]. rewrite Ef in Htd |- *.
      destruct (forallb (arg_ok D) args); [|discriminate Htd]. injection Htd as <-.
      eexists. split; [reflexivity|]. split; [apply agree_add_event; exact Hag | apply origin_refl].
    - (* EPlugin *)
      intros k h args s2 n D D' s1 Htd Hag _. unf Htd. cbn [exec].
      destruct (forallb (arg_ok D) args); [|discriminate Htd]. injection Htd as <-.
      eexists. split; [reflexivity|]. split; [apply agree_add_event; exact Hag | apply origin_refl].
  Qed.
End Effects.
Print Assumptions tdefS_sound_aux.

Lemma lmono_same_sorts l1 l2 x : lmono l1 l2 -> lmono l2 l1 ->
  option_map sort_of_val (lookup x l1) = option_map sort_of_val (lookup x l2).
Proof.
  intros H12 H21. destruct (lookup x l1) as [v1|] eqn:E1.
  - destruct (H12 _ _ E1) as (v2 & E2 & Hs). rewrite E2. cbn [option_map]. congruence.
  - destruct (lookup x l2) as [v2|] eqn:E2; [|reflexivity].
    destruct (H21 _ _ E2) as (v1 & E1' & Hs). congruence.
Qed.

Lemma stale_cases x D : (is_tmp x = false \/ In x D) \/ (is_tmp x = true /\ ~ In x D).
Proof.
  destruct (is_tmp x); [|left; left; reflexivity].
  destruct (inb x D) eqn:E; [left; right; apply inb_spec; exact E | right; split; [reflexivity | apply inb_false; exact E]].
Qed.

(* the sort hypotheses only have to be stated for the temporaries outside D: on the rest the states are equal *)
Lemma compat_of_stale D s1 s2 s2' :
  agree_off D s1 s2 -> lmono (locals s2) (locals s2') -> stale_compat D s1 s2' -> compat (locals s1) (locals s2').
Proof.
  intros [_ Hl] Hm Hst x v1 v2 Hx1 Hx2. destruct (stale_cases x D) as [Hx|[Ht Hn]].
  - rewrite (Hl x Hx) in Hx1. destruct (Hm _ _ Hx1) as (v' & Hx' & Hs). congruence.
  - exact (Hst x v1 v2 Ht Hn Hx1 Hx2).
Qed.
Lemma lmono_of_fewer D s2 s1 : agree_off D s1 s2 -> stale_fewer D s2 s1 -> lmono (locals s2) (locals s1).
Proof.
  intros [_ Hl] Hf x v Hx. destruct (stale_cases x D) as [Hx'|[Ht Hn]].
  - rewrite <- (Hl x Hx') in Hx. eauto.
  - exact (Hf x v Ht Hn Hx).
Qed.

Lemma fewer_of_same_sorts D s1 s2 : stale_same_sorts D s1 s2 -> stale_fewer D s2 s1.
Proof.
  intros Hss x v2 Ht Hn Hx. specialize (Hss x Ht Hn). rewrite Hx in Hss.
  destruct (lookup x (locals s1)) as [v1|]; [|discriminate Hss]. cbn [option_map] in Hss.
  exists v1. split; [reflexivity | congruence].
Qed.

Lemma lookup_clean D s x :
  lookup x (locals (clean D s)) = if negb (is_tmp x) || inb x D then lookup x (locals s) else None.
Proof.
  cbn [clean locals]. induction (locals s) as [|[y u] l IH]; cbn [filter].
  - destruct (negb (is_tmp x) || inb x D); reflexivity.
  - unfold keep at 1. cbn [fst]. destruct (String.eqb x y) eqn:E.
    + apply String.eqb_eq in E. subst y. destruct (negb (is_tmp x) || inb x D) eqn:K.
      * rewrite !lookup_cons, String.eqb_refl. reflexivity.
      * rewrite IH. reflexivity.
    + destruct (negb (is_tmp y) || inb y D); [rewrite !lookup_cons, E; exact IH|].
      rewrite lookup_cons, E. exact IH.
Qed.
Lemma agree_off_clean D s : agree_off D s (clean D s).
Proof.
  split; [unfold same_machine; cbn [clean rold rnew rnew0 imms pktaddr mem mem0 events]; repeat split|].
  intros x Hx. rewrite lookup_clean. destruct Hx as [Hx|Hx].
  - rewrite Hx. reflexivity.
  - apply inb_spec in Hx. rewrite Hx, orb_true_r. reflexivity.
Qed.
Lemma clean_no_stale D s x : is_tmp x = true -> ~ In x D -> lookup x (locals (clean D s)) = None.
Proof. intros Ht Hn. rewrite lookup_clean, Ht. apply inb_false in Hn. rewrite Hn. reflexivity. Qed.
Lemma clean_fewer D s : stale_fewer D (clean D s) s.
Proof. intros x v Ht Hn Hx. rewrite (clean_no_stale D s x Ht Hn) in Hx. discriminate Hx. Qed.
Lemma clean_nil_no_tmp s : no_tmp (clean [] s).
Proof. intros x Ht. apply clean_no_stale; [exact Ht | intros []]. Qed.

Section Theorems.
  Variable rw : regwidth.
  Variable subs : subenv.

  (* MAIN THEOREM (every effect, every fuel, every call depth n, known callees included).
     s2 is a reference run that succeeds.  Any state s1 that differs from s2 only in temporaries not yet
     written (values AND presence), and whose stale temporaries do not clash in SORT with what the reference
     run leaves in them, runs successfully as well, to a result that differs only in temporaries outside D'. *)
  Theorem tdefS_sound : forall fuel n e D D' s1 s2 s2',
    tdefS subs n D e = Some D' -> agree_off D s1 s2 ->
    exec rw subs fuel e s2 = Some s2' -> stale_compat D s1 s2' ->
    exists s1', exec rw subs fuel e s1 = Some s1' /\ agree_off D' s1' s2'.
  Proof.
    intros fuel n e D D' s1 s2 s2' Htd Hag He Hst.
    destruct (tdefS_sound_aux rw subs fuel n e D D' s1 s2 s2' Htd Hag He) as (s1' & X & Ag & _).
    - eapply compat_of_stale; [exact Hag | exact (exec_locals_mono rw subs _ _ _ _ He) | exact Hst].
    - eauto.
  Qed.

  (* ONE DIRECTION NEEDS NO SORT HYPOTHESIS AT ALL: dropping stale temporaries never hurts.  If the run from s1
     succeeds, so does the run from any s2 that agrees off D and holds FEWER stale temporaries. *)
  Theorem tdefS_sound_fewer : forall fuel n e D D' s1 s2 s1',
    tdefS subs n D e = Some D' -> agree_off D s1 s2 -> stale_fewer D s2 s1 ->
    exec rw subs fuel e s1 = Some s1' ->
    exists s2', exec rw subs fuel e s2 = Some s2' /\ agree_off D' s1' s2' /\ lmono (locals s2') (locals s1').
  Proof.
    intros fuel n e D D' s1 s2 s1' Htd Hag Hf He.
    pose proof (lmono_of_fewer D s2 s1 Hag Hf) as Hm21.
    pose proof (exec_locals_mono rw subs _ _ _ _ He) as Hm1.
    destruct (tdefS_sound_aux rw subs fuel n e D D' s2 s1 s1' Htd (agree_off_sym _ _ _ Hag) He) as (s2' & X & Ag & Or).
    - intros x v2 v1' Hx2 Hx1'. destruct (Hm21 _ _ Hx2) as (v1 & Hx1 & Hs).
      destruct (Hm1 _ _ Hx1) as (v' & Hx' & Hs'). congruence.
    - exists s2'. split; [exact X|]. split; [apply agree_off_sym; exact Ag|].
      intros x v Hx. destruct (Or _ _ Hx) as [(v0 & Hx0 & Hs0)|Hr]; [|exact Hr].
      destruct (Hm21 _ _ Hx0) as (v1 & Hx1 & Hs1). destruct (Hm1 _ _ Hx1) as (v' & Hx' & Hs').
      exists v'. split; [exact Hx' | congruence].
  Qed.

  (* NON-INTERFERENCE, symmetric form: if the stale temporaries are bound in both states or in neither, to
     values of the same sort (their VALUES are arbitrary), the two runs both fail or both succeed, with results
     that agree off D' and again have equally-sorted stale temporaries. *)
  Theorem tdefS_noninterference : forall fuel n e D D' s1 s2,
    tdefS subs n D e = Some D' -> agree_off D s1 s2 -> stale_same_sorts D s1 s2 ->
    match exec rw subs fuel e s1, exec rw subs fuel e s2 with
    | Some s1', Some s2' => agree_off D' s1' s2' /\ stale_same_sorts D' s1' s2'
    | None, None => True
    | _, _ => False
    end.
  Proof.
    intros fuel n e D D' s1 s2 Htd Hag Hss.
    pose proof (fewer_of_same_sorts D s1 s2 Hss) as F21.
    pose proof (fewer_of_same_sorts D s2 s1 (fun x Ht Hn => eq_sym (Hss x Ht Hn))) as F12.
    pose proof (agree_off_sym _ _ _ Hag) as Hag'.
    destruct (exec rw subs fuel e s1) as [s1'|] eqn:E1; destruct (exec rw subs fuel e s2) as [s2'|] eqn:E2.
    - destruct (tdefS_sound_fewer fuel n e D D' s1 s2 s1' Htd Hag F21 E1) as (t2 & X2 & Ag2 & M2).
      destruct (tdefS_sound_fewer fuel n e D D' s2 s1 s2' Htd Hag' F12 E2) as (t1 & X1 & Ag1 & M1).
      rewrite E2 in X2. injection X2 as <-. rewrite E1 in X1. injection X1 as <-.
      split; [exact Ag2|]. intros x _ _. apply lmono_same_sorts; assumption.
    - destruct (tdefS_sound_fewer fuel n e D D' s1 s2 s1' Htd Hag F21 E1) as (t2 & X2 & _). congruence.
    - destruct (tdefS_sound_fewer fuel n e D D' s2 s1 s2' Htd Hag' F12 E2) as (t1 & X1 & _). congruence.
    - exact I.
  Qed.

  (* THE SORT HYPOTHESIS IS EXACT when the reference state holds fewer stale temporaries (e.g. none): the run
     from s1 succeeds IF AND ONLY IF the reference run succeeds and no stale temporary of s1 clashes in sort
     with what the reference run leaves in it. *)
  Theorem tdefS_sound_exact : forall fuel n e D D' s1 s2,
    tdefS subs n D e = Some D' -> agree_off D s1 s2 -> stale_fewer D s2 s1 ->
    ((exists s1', exec rw subs fuel e s1 = Some s1') <->
     (exists s2', exec rw subs fuel e s2 = Some s2' /\ stale_compat D s1 s2')).
  Proof.
    intros fuel n e D D' s1 s2 Htd Hag Hf. split.
    - intros (s1' & E1).
      destruct (tdefS_sound_fewer fuel n e D D' s1 s2 s1' Htd Hag Hf E1) as (s2' & E2 & _ & M).
      exists s2'. split; [exact E2|].
      intros x v1 v' _ _ Hx1 Hx'. destruct (M _ _ Hx') as (w & Hw & Hs).
      destruct (exec_locals_mono rw subs _ _ _ _ E1 _ _ Hx1) as (w' & Hw' & Hs'). congruence.
    - intros (s2' & E2 & Hst).
      destruct (tdefS_sound fuel n e D D' s1 s2 s2' Htd Hag E2 Hst) as (s1' & E1 & _). eauto.
  Qed.

  (* whatever a run does, the run from the state with the unwritten temporaries REMOVED does the same *)
  Theorem run_then_clean_run : forall fuel n e D D' s s',
    tdefS subs n D e = Some D' -> exec rw subs fuel e s = Some s' ->
    exists c', exec rw subs fuel e (clean D s) = Some c' /\ agree_off D' s' c'.
  Proof.
    intros fuel n e D D' s s' Htd He.
    destruct (tdefS_sound_fewer fuel n e D D' s (clean D s) s' Htd (agree_off_clean D s) (clean_fewer D s) He)
      as (c' & X & Ag & _). eauto.
  Qed.

  (* conversely, a successful clean run is reproduced from s provided the stale temporaries of s have the
     sort the clean run gives them (if it writes them at all); see stale_sort_clash below for why this is needed *)
  Theorem clean_run_then_run : forall fuel n e D D' s c',
    tdefS subs n D e = Some D' -> exec rw subs fuel e (clean D s) = Some c' -> stale_compat D s c' ->
    exists s', exec rw subs fuel e s = Some s' /\ agree_off D' s' c'.
  Proof.
    intros fuel n e D D' s c' Htd He Hst.
    exact (tdefS_sound fuel n e D D' s (clean D s) c' Htd (agree_off_clean D s) He Hst).
  Qed.

  Theorem run_iff_clean_run : forall fuel n e D D' s,
    tdefS subs n D e = Some D' ->
    ((exists s', exec rw subs fuel e s = Some s') <->
     (exists c', exec rw subs fuel e (clean D s) = Some c' /\ stale_compat D s c')).
  Proof.
    intros fuel n e D D' s Htd.
    exact (tdefS_sound_exact fuel n e D D' s (clean D s) Htd (agree_off_clean D s) (clean_fewer D s)).
  Qed.

  Theorem tdef_sound : forall fuel e D D' s1 s2 s2',
    tdef D e = Some D' -> calls_opaque subs e -> agree_off D s1 s2 ->
    exec rw subs fuel e s2 = Some s2' -> stale_compat D s1 s2' ->
    exists s1', exec rw subs fuel e s1 = Some s1' /\ agree_off D' s1' s2'.
  Proof. intros fuel e D D' s1 s2 s2' Htd Hop. rewrite <- (tdefS_tdef subs 0 e D Hop) in Htd. exact (tdefS_sound fuel 0 _ _ _ _ _ _ Htd). Qed.

  Theorem tdef_sound_fewer : forall fuel e D D' s1 s2 s1',
    tdef D e = Some D' -> calls_opaque subs e -> agree_off D s1 s2 -> stale_fewer D s2 s1 ->
    exec rw subs fuel e s1 = Some s1' ->
    exists s2', exec rw subs fuel e s2 = Some s2' /\ agree_off D' s1' s2'.
  Proof.
    intros fuel e D D' s1 s2 s1' Htd Hop Hag Hf He. rewrite <- (tdefS_tdef subs 0 e D Hop) in Htd.
    destruct (tdefS_sound_fewer fuel 0 e D D' s1 s2 s1' Htd Hag Hf He) as (s2' & X & Ag & _).
    eauto.
  Qed.

  Theorem tdef_noninterference : forall fuel e D D' s1 s2,
    tdef D e = Some D' -> calls_opaque subs e -> agree_off D s1 s2 -> stale_same_sorts D s1 s2 ->
    match exec rw subs fuel e s1, exec rw subs fuel e s2 with
    | Some s1', Some s2' => agree_off D' s1' s2' /\ stale_same_sorts D' s1' s2'
    | None, None => True
    | _, _ => False
    end.
  Proof. intros fuel e D D' s1 s2 Htd Hop. rewrite <- (tdefS_tdef subs 0 e D Hop) in Htd. exact (tdefS_noninterference fuel 0 _ _ _ _ _ Htd). Qed.

  Theorem tdef_run_then_clean_run : forall fuel e D D' s s',
    tdef D e = Some D' -> calls_opaque subs e -> exec rw subs fuel e s = Some s' ->
    exists c', exec rw subs fuel e (clean D s) = Some c' /\ agree_off D' s' c'.
  Proof. intros fuel e D D' s s' Htd Hop. rewrite <- (tdefS_tdef subs 0 e D Hop) in Htd. exact (run_then_clean_run fuel 0 _ _ _ _ _ Htd). Qed.

  Theorem tdef_clean_run_then_run : forall fuel e D D' s c',
    tdef D e = Some D' -> calls_opaque subs e -> exec rw subs fuel e (clean D s) = Some c' -> stale_compat D s c' ->
    exists s', exec rw subs fuel e s = Some s' /\ agree_off D' s' c'.
  Proof. intros fuel e D D' s c' Htd Hop. rewrite <- (tdefS_tdef subs 0 e D Hop) in Htd. exact (clean_run_then_run fuel 0 _ _ _ _ _ Htd). Qed.

  (* The check passes from the empty set, and the run from a state s0 without any temporary
     succeeds.  Then from every state s1 that differs from s0 only in extra temporaries, of arbitrary VALUE
     but of the sort the s0-run leaves in them (if it writes them), the run succeeds with the same registers,
     memory, events, non-temporary locals and temporaries in D'.  (no_tmp s0 is what makes the temporaries of
     s1 "extra"; the proof does not need it.) *)
  Corollary tdef_fresh_run_represents : forall fuel e D' s0 s0' s1,
    tdef [] e = Some D' -> calls_opaque subs e ->
    no_tmp s0 -> exec rw subs fuel e s0 = Some s0' ->
    agree_off [] s1 s0 -> stale_compat [] s1 s0' ->
    exists s1', exec rw subs fuel e s1 = Some s1' /\ agree_off D' s1' s0'.
  Proof. intros fuel e D' s0 s0' s1 Htd Hop _ He Hag Hst. exact (tdef_sound fuel e [] D' s1 s0 s0' Htd Hop Hag He Hst). Qed.

  Corollary tdefS_fresh_run_represents : forall fuel n e D' s0 s0' s1,
    tdefS subs n [] e = Some D' ->
    no_tmp s0 -> exec rw subs fuel e s0 = Some s0' ->
    agree_off [] s1 s0 -> stale_compat [] s1 s0' ->
    exists s1', exec rw subs fuel e s1 = Some s1' /\ agree_off D' s1' s0'.
  Proof. intros fuel n e D' s0 s0' s1 Htd _ He Hag Hst. exact (tdefS_sound fuel n e [] D' s1 s0 s0' Htd Hag He Hst). Qed.

  (* and the unconditional direction: every successful run is represented by the run from the state with
     all temporaries removed *)
  Corollary tdef_run_represented_by_fresh : forall fuel e D' s s',
    tdef [] e = Some D' -> calls_opaque subs e -> exec rw subs fuel e s = Some s' ->
    no_tmp (clean [] s) /\ exists c', exec rw subs fuel e (clean [] s) = Some c' /\ agree_off D' s' c'.
  Proof.
    intros fuel e D' s s' Htd Hop He. split; [apply clean_nil_no_tmp|].
    exact (tdef_run_then_clean_run fuel e [] D' s s' Htd Hop He).
  Qed.
End Theorems.
Print Assumptions tdefS_sound.
Print Assumptions tdefS_sound_fewer.
Print Assumptions tdefS_sound_exact.
Print Assumptions run_iff_clean_run.
Print Assumptions tdefS_noninterference.
Print Assumptions run_then_clean_run.
Print Assumptions clean_run_then_run.
Print Assumptions tdef_sound.
Print Assumptions tdef_noninterference.
Print Assumptions tdef_fresh_run_represents.
Print Assumptions tdef_run_represented_by_fresh.
Print Assumptions tdef_incl.
Print Assumptions tdef_mono.

Module Examples.
  Definition one := PBv false 32 1.
  Definition t0 := "h_tmp0".
  Definition t1 := "h_tmp1".
  Definition rd (x : string) := ESetL "x" (PVarL x).          (* x := <read of the local> *)
  Definition wr (x : string) := ESetL x one.

  Example is_tmp_yes : is_tmp "h_tmp12" = true.        Proof. vm_compute. reflexivity. Qed.
  Example is_tmp_no1 : is_tmp "tmp" = false.            Proof. vm_compute. reflexivity. Qed.
  Example is_tmp_no2 : is_tmp "EA" = false.             Proof. vm_compute. reflexivity. Qed.
  Example is_tmp_no3 : is_tmp "xh_tmp1" = false.        Proof. vm_compute. reflexivity. Qed.

  (* rejected *)
  Example rej_read_then_write : tdef [] (ESeq (rd t0) (wr t0)) = None.
  Proof. vm_compute. reflexivity. Qed.
  Example rej_one_arm_only : tdef [] (ESeq (EBranch (PBool true) (wr t0) ENop) (rd t0)) = None.
  Proof. vm_compute. reflexivity. Qed.
  Example rej_other_arm_only : tdef [] (ESeq (EBranch (PBool true) (wr t1) (wr t0)) (rd t0)) = None.
  Proof. vm_compute. reflexivity. Qed.
  Example rej_loop_body_write : tdef [] (ESeq (ERepeat (PBool true) (wr t0)) (rd t0)) = None.
  Proof. vm_compute. reflexivity. Qed.
  Example rej_loop_first_iteration : tdef [] (ERepeat (PBool true) (ESeq (rd t0) (wr t0))) = None.
  Proof. vm_compute. reflexivity. Qed.
  Example rej_loop_condition : tdef [] (ERepeat (PNonZero (PVarL t0)) (wr t0)) = None.
  Proof. vm_compute. reflexivity. Qed.
  Example rej_branch_condition : tdef [] (EBranch (PNonZero (PVarL t0)) (wr t0) (wr t0)) = None.
  Proof. vm_compute. reflexivity. Qed.
  Example rej_call_argument : tdef [] (ESeq (ECall "f" [AOp (RNreg "s"); APure (PVarL t0)]) (wr t0)) = None.
  Proof. vm_compute. reflexivity. Qed.
  Example rej_plugin_argument : tdef [] (ESeq (EPlugin "g" [APure (PBin BAdd one (PVarL t0))]) (wr t0)) = None.
  Proof. vm_compute. reflexivity. Qed.
  Example rej_store_address : tdef [] (ESeq (EStore (PVarL t0) one) (wr t0)) = None.
  Proof. vm_compute. reflexivity. Qed.
  Example rej_store_value : tdef [] (ESeq (EStore one (PCast 32 (PBool false) (PVarL t0))) (wr t0)) = None.
  Proof. vm_compute. reflexivity. Qed.
  Example rej_write_reg : tdef [] (EWriteReg (RNreg "d") (PVarL t0)) = None.
  Proof. vm_compute. reflexivity. Qed.
  Example rej_self_read : tdef [] (ESetL t0 (PBin BAdd (PVarL t0) one)) = None.
  Proof. vm_compute. reflexivity. Qed.
  (* a read under let-binders, in the bound term and in the body; inside PIte arms and PApp arguments *)
  Example rej_under_let_body : tdef [] (ESetL "x" (PLet "v" one (PBin BAdd (PVarLP "v") (PVarL t0)))) = None.
  Proof. vm_compute. reflexivity. Qed.
  Example rej_under_let_bound : tdef [] (ESetL "x" (PLet "v" (PVarL t0) (PVarLP "v"))) = None.
  Proof. vm_compute. reflexivity. Qed.
  Example rej_let_does_not_shadow : tdef [] (ESetL "x" (PLet t0 one (PVarL t0))) = None.
  Proof. vm_compute. reflexivity. Qed.
  Example rej_ite_arm : tdef [] (ESetL "x" (PIte (PBool true) one (PVarL t0))) = None.
  Proof. vm_compute. reflexivity. Qed.
  Example rej_app_arg : tdef [] (ESetL "x" (PApp "EXTRACT32" [one; PVarL t0; one])) = None.
  Proof. vm_compute. reflexivity. Qed.

  (* accepted *)
  Example acc_write_then_read : tdef [] (ESeq (wr t0) (rd t0)) = Some [t0].
  Proof. vm_compute. reflexivity. Qed.
  Example acc_both_arms_write : tdef [] (ESeq (EBranch (PBool true) (wr t0) (ESeq (wr t1) (wr t0))) (rd t0)) = Some [t0].
  Proof. vm_compute. reflexivity. Qed.
  Example acc_non_temporary : tdef [] (ESeq (rd "EA") (ESetL "EA" one)) = Some [].
  Proof. vm_compute. reflexivity. Qed.
  Example acc_let_variable_named_like_a_temporary : tdef [] (ESetL "x" (PLet t0 one (PVarLP t0))) = Some [].
  Proof. vm_compute. reflexivity. Qed.
  Example acc_loop_reads_earlier_write :
    tdef [] (ESeq (wr t0) (ERepeat (PNonZero (PVarL t0)) (ESeq (wr t1) (ESetL t0 (PBin BSub (PVarL t0) (PVarL t1))))))
    = Some [t0].
  Proof. vm_compute. reflexivity. Qed.
  Example acc_call_argument_after_write : tdef [] (ESeq (wr t0) (ECall "f" [APure (PVarL t0)])) = Some [t0].
  Proof. vm_compute. reflexivity. Qed.

  Definition st0 (l : list (string * val)) : mstate :=
    {| locals := l; rold := fun _ => 0%Z; rnew := []; rnew0 := fun _ => 0%Z; imms := fun _ => 0%Z;
       pktaddr := 0%Z; mem := []; mem0 := fun _ => 0%Z; events := [] |}.
  Definition rw0 : regwidth := fun _ => 32%N.
  Definition subs0 : subenv := fun _ => None.

  (* ESetL checks the sort of the old value at run time.  A stale temporary of another sort makes the
         write itself fail, although the temporary is never read: *)
  Definition clash := st0 [(t0, VB true)].
  Example stale_sort_clash :
    tdef [] (wr t0) = Some [t0] /\
    locals (clean [] clash) = [] /\
    option_map locals (exec rw0 subs0 1 (wr t0) (st0 [])) = Some [(t0, VBv 32 1)] /\
    option_map locals (exec rw0 subs0 1 (wr t0) (clean [] clash)) = Some [(t0, VBv 32 1)] /\
    exec rw0 subs0 1 (wr t0) clash = None.
  Proof. vm_compute. repeat split. Qed.

  Lemma agree_clash : agree_off [] clash (st0 []).
  Proof.
    split; [repeat split|]. intros x [Hx|[]]. cbn [clash st0 locals lookup]. destruct (String.eqb x t0) eqn:E; [|reflexivity].
    apply String.eqb_eq in E. subst x. vm_compute in Hx. discriminate Hx.
  Qed.

  (* so non-interference without any sort hypothesis is false (tdef_noninterference needs stale_same_sorts) *)
  Theorem unconditional_noninterference_false :
    ~ (forall rw subs fuel e D D' s1 s2,
         tdef D e = Some D' -> calls_opaque subs e -> agree_off D s1 s2 ->
         match exec rw subs fuel e s1, exec rw subs fuel e s2 with
         | Some _, Some _ | None, None => True
         | _, _ => False
         end).
  Proof.
    intro H. specialize (H rw0 subs0 1%nat (wr t0) [] [t0] clash (st0 []) eq_refl I agree_clash).
    vm_compute in H. exact H.
  Qed.

  (* and "the clean run succeeds => the run from s succeeds" is false without stale_compat
     (tdef_clean_run_then_run, tdef_fresh_run_represents need it) *)
  Theorem clean_run_does_not_imply_run :
    ~ (forall rw subs fuel e D D' s c',
         tdef D e = Some D' -> calls_opaque subs e -> exec rw subs fuel e (clean D s) = Some c' ->
         exists s', exec rw subs fuel e s = Some s').
  Proof.
    intro H.
    destruct (exec rw0 subs0 1 (wr t0) (clean [] clash)) as [c'|] eqn:E; [|vm_compute in E; discriminate E].
    destruct (H rw0 subs0 1%nat (wr t0) [] [t0] clash c' eq_refl I E) as (s' & X).
    vm_compute in X. discriminate X.
  Qed.

  (* a callee known to subs runs in the caller's locals: tdef, which cannot see the body, is unsound
         without calls_opaque, even between states with equally-sorted temporaries; tdefS sees the body *)
  Definition subs1 : subenv :=
    fun f => if String.eqb f "f" then Some (["p"], ESetL "x" (PBin BAdd (PParam "p") (PVarL t0))) else None.
  Example known_callee_reads_temporary :
    tdef [] (ECall "f" [APure one]) = Some [] /\
    tdefS subs1 3 [] (ECall "f" [APure one]) = None /\
    option_map (fun s => lookup "x" (locals s)) (exec rw0 subs1 2 (ECall "f" [APure one]) (st0 [(t0, VBv 32 1)]))
      = Some (Some (VBv 32 2)) /\
    option_map (fun s => lookup "x" (locals s)) (exec rw0 subs1 2 (ECall "f" [APure one]) (st0 [(t0, VBv 32 5)]))
      = Some (Some (VBv 32 6)).
  Proof. vm_compute. repeat split. Qed.
  (* the argument of a known callee is checked where the body uses it *)
  Example known_callee_argument :
    tdefS subs1 3 [] (ESeq (wr t0) (ECall "f" [APure (PVarL t1)])) = None /\
    tdefS subs1 3 [] (ESeq (wr t0) (ESeq (wr t1) (ECall "f" [APure (PVarL t1)]))) = Some [t1; t0] /\
    tdefS subs1 0 [] (ESeq (wr t0) (ECall "f" [APure one])) = None.
  Proof. vm_compute. repeat split. Qed.

  (* the result of a loop cannot include what the body writes (zero iterations), and the result of a
         branch cannot include what only one arm writes: with these programs the read is really reached
         with the temporary unwritten, and its stale value leaks into the non-temporary local "x" *)
  Definition leak_loop := ESeq (ERepeat (PBool false) (wr t0)) (rd t0).
  Definition leak_branch := ESeq (EBranch (PBool false) (wr t0) ENop) (rd t0).
  Example leaks :
    option_map (fun s => lookup "x" (locals s)) (exec rw0 subs0 5 leak_loop (st0 [(t0, VBv 32 7)])) = Some (Some (VBv 32 7)) /\
    option_map (fun s => lookup "x" (locals s)) (exec rw0 subs0 5 leak_loop (st0 [(t0, VBv 32 8)])) = Some (Some (VBv 32 8)) /\
    exec rw0 subs0 5 leak_loop (st0 []) = None /\
    option_map (fun s => lookup "x" (locals s)) (exec rw0 subs0 5 leak_branch (st0 [(t0, VBv 32 7)])) = Some (Some (VBv 32 7)) /\
    exec rw0 subs0 5 leak_branch (st0 []) = None.
  Proof. vm_compute. repeat split. Qed.
End Examples.
Print Assumptions Examples.unconditional_noninterference_false.
Print Assumptions Examples.clean_run_does_not_imply_run.
