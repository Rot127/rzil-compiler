(* The backtracking matcher of lib/Regex.v on the constructs the preprocessor's regexes are built
   from (literal, greedy run of a character class, group, concatenation, end of line, search), as
   rewriting, introduction and inversion lemmas; the one fact about greed is star_g_rightmost.
   Then, for ALL strings, the two regex-based string functions of the preprocessor model
   (model/Pre.v): split_resolved (re.search of the "insn" line pattern) and split_compounds
   (re.match of the compound-marker pattern), plus load_line.
   Every theorem is about the GENERATED regex terms of gen/Regexes.v: the proofs see them through
   the re_*_eq lemmas, which hold by conversion. *)
From Coq Require Import List Ascii String Bool Arith Lia.
From RZ.lib Require Import Regex.
From RZ.gen Require Import Regexes.
From RZ.model Require Import Pre.
Import ListNotations.
Local Open Scope char_scope.
Local Open Scope list_scope.

Lemma prefix_lit_app : forall l s, prefix_lit l (l ++ s) = Some s.
Proof.
  induction l as [|c l IH]; intros s; cbn; [reflexivity|].
  rewrite Ascii.eqb_refl. apply IH.
Qed.

Lemma prefix_lit_inv : forall l s s', prefix_lit l s = Some s' -> s = l ++ s'.
Proof.
  induction l as [|c l IH]; intros s s' H; cbn in *.
  - congruence.
  - destruct s as [|d s]; [discriminate|].
    destruct (Ascii.eqb_spec c d) as [->|]; [|discriminate].
    f_equal. apply IH. exact H.
Qed.

(* starts_with is prefix_lit without the remainder: facts about one transfer to the other *)
Lemma starts_with_prefix_lit : forall l s, starts_with l s = if prefix_lit l s then true else false.
Proof.
  induction l as [|c l IH]; intros [|d s]; cbn; try reflexivity.
  destruct (Ascii.eqb c d); [apply IH|reflexivity].
Qed.

Lemma starts_with_app : forall l s, starts_with l (l ++ s) = true.
Proof. intros l s. rewrite starts_with_prefix_lit, prefix_lit_app. reflexivity. Qed.

Lemma starts_with_inv : forall l s, starts_with l s = true -> exists s', s = l ++ s'.
Proof.
  intros l s H. rewrite starts_with_prefix_lit in H.
  destruct (prefix_lit l s) as [s'|] eqn:E; [|discriminate]. exists s'. apply prefix_lit_inv. exact E.
Qed.

Lemma starts_prefix_lit : forall l s, starts_with l s = true -> exists s', prefix_lit l s = Some s'.
Proof. intros l s H. rewrite starts_with_prefix_lit in H. destruct (prefix_lit l s); [eauto|discriminate]. Qed.

Lemma starts_with_length : forall l s, starts_with l s = true -> List.length l <= List.length s.
Proof. intros l s H. destruct (starts_with_inv _ _ H) as [s' ->]. rewrite app_length. lia. Qed.

Lemma contains_app_r : forall l u s, contains l s = true -> contains l (u ++ s) = true.
Proof.
  intros l u s H. induction u as [|a u IH]; cbn [app]; [exact H|].
  cbn [contains]. rewrite IH. apply orb_true_r.
Qed.

(* an occurrence at a suffix is an occurrence *)
Lemma contains_suffix : forall l u s, starts_with l s = true -> contains l (u ++ s) = true.
Proof. intros l u s H. apply contains_app_r. destruct s; cbn [contains]; rewrite H; reflexivity. Qed.

Lemma contains_inv : forall l s, contains l s = true -> exists u v, s = u ++ v /\ starts_with l v = true.
Proof.
  intros l s. induction s as [|a s IH]; intros H.
  - cbn in H. rewrite orb_false_r in H. exists [], []. auto.
  - cbn [contains] in H. apply orb_true_iff in H. destruct H as [H|H].
    + exists [], (a :: s). auto.
    + destruct (IH H) as (u & v & -> & Hv). exists (a :: u), v. auto.
Qed.

(* a literal that does not contain the character c cannot straddle an occurrence of c *)
Lemma starts_with_cut : forall l x c y,
  existsb (Ascii.eqb c) l = false -> starts_with l (x ++ c :: y) = true -> starts_with l x = true.
Proof.
  induction l as [|d l IH]; intros x c y Hc H; [reflexivity|].
  cbn [existsb] in Hc. apply orb_false_iff in Hc. destruct Hc as [Hcd Hc].
  destruct x as [|a x]; cbn [app starts_with] in *.
  - apply andb_true_iff in H. destruct H as [H _]. apply Ascii.eqb_eq in H. subst d.
    rewrite Ascii.eqb_refl in Hcd. discriminate.
  - apply andb_true_iff in H. destruct H as [H1 H2]. rewrite H1. cbn. eapply IH; eauto.
Qed.

Lemma contains_cut : forall l x c y,
  existsb (Ascii.eqb c) l = false -> l <> [] ->
  contains l (x ++ c :: y) = true -> contains l x = true \/ contains l y = true.
Proof.
  intros l x c y Hc Hl. induction x as [|a x IH]; cbn [app]; intros H.
  - cbn [contains] in H. apply orb_true_iff in H. destruct H as [H|H]; [|auto].
    apply (starts_with_cut l [] c y Hc) in H. destruct l; [congruence|discriminate].
  - cbn [contains] in H. apply orb_true_iff in H. destruct H as [H|H].
    + left. apply (starts_with_cut l (a :: x) c y Hc) in H. cbn [contains]. rewrite H. reflexivity.
    + destruct (IH H) as [H'|H']; [left|right; exact H'].
      cbn [contains]. rewrite H'. apply orb_true_r.
Qed.

Lemma contains_cut_false : forall l x c y,
  existsb (Ascii.eqb c) l = false -> l <> [] ->
  contains l x = false -> contains l y = false -> contains l (x ++ c :: y) = false.
Proof.
  intros l x c y Hc Hl Hx Hy. destruct (contains l (x ++ c :: y)) eqn:E; [|reflexivity].
  destruct (contains_cut _ _ _ _ Hc Hl E); congruence.
Qed.

(* a literal starting with c cannot start inside a block free of c *)
Lemma contains_skip : forall c l a z,
  existsb (Ascii.eqb c) a = false -> contains (c :: l) (a ++ z) = contains (c :: l) z.
Proof.
  intros c l a z. induction a as [|d a IH]; intros H; [reflexivity|].
  cbn [existsb] in H. apply orb_false_iff in H. destruct H as [H1 H2].
  cbn [app contains starts_with]. rewrite H1. cbn. apply IH. exact H2.
Qed.

Lemma contains_tail : forall c l z, contains (c :: l) z = true -> contains l z = true.
Proof.
  intros c l z H. destruct (contains_inv _ _ H) as (u & v & -> & Hv).
  destruct v as [|d v]; [discriminate|]. cbn [starts_with] in Hv.
  apply andb_true_iff in Hv. destruct Hv as [_ Hv].
  replace (u ++ d :: v) with ((u ++ [d]) ++ v) by (rewrite <- app_assoc; reflexivity).
  apply contains_suffix. exact Hv.
Qed.

Lemma firstn_len_app : forall (a b : str), firstn (List.length (a ++ b) - List.length b) (a ++ b) = a.
Proof.
  intros a b. rewrite app_length. replace (List.length a + List.length b - List.length b) with (List.length a + 0) by lia.
  rewrite firstn_app_2. cbn. apply app_nil_r.
Qed.

Lemma app_suffix_len : forall (a b c d : str),
  a ++ b = c ++ d -> List.length a <= List.length c -> exists w, b = w ++ d.
Proof.
  induction a as [|x a IH]; intros b c d H Hl.
  - exists c. exact H.
  - destruct c as [|y c]; [cbn in Hl; lia|].
    cbn in H. injection H as _ H. apply (IH _ _ _ H). cbn in Hl. lia.
Qed.

Definition stops (p : ascii -> bool) (rest : str) : Prop :=
  match rest with [] => True | c :: _ => p c = false end.

Definition ptrue (p : ascii -> bool) (xs : str) : Prop := Forall (fun c => p c = true) xs.

(* the continuation fails after every non-empty run of p-characters at the start of t: the
   positions a greedy star tries BEFORE it hands t itself to the continuation *)
Definition nolater (p : ascii -> bool) (k : str -> option caps) (t : str) : Prop :=
  forall u v, t = u ++ v -> u <> [] -> ptrue p u -> k v = None.

Lemma nolater_stops : forall p k t, stops p t -> nolater p k t.
Proof.
  intros p k t Hs u v -> Hu Hp. destruct u as [|a u]; [congruence|].
  inversion Hp; subst. cbn in Hs. congruence.
Qed.

Lemma star_g_fall : forall p t k, nolater p k t -> star_g p t k = k t.
Proof.
  intros p t k. induction t as [|c t IH]; intros H; cbn [star_g]; [reflexivity|].
  destruct (p c) eqn:Hc; [|reflexivity]. rewrite IH.
  - rewrite (H [c] t eq_refl); [reflexivity|discriminate|repeat constructor; exact Hc].
  - intros u v E Hu Hp. apply (H (c :: u) v); [cbn; congruence|discriminate|constructor; assumption].
Qed.

(* THE greedy lemma: the result is that of the continuation at the rightmost end of a run where it succeeds *)
Lemma star_g_rightmost : forall p xs t k r,
  ptrue p xs -> nolater p k t -> k t = Some r -> star_g p (xs ++ t) k = Some r.
Proof.
  intros p xs t k r Hx Hn Hk. induction Hx as [|x xs Hpx Hx IH]; cbn [app star_g].
  - rewrite star_g_fall; assumption.
  - rewrite Hpx, IH. reflexivity.
Qed.

Lemma star_g_all : forall p xs rest k r,
  ptrue p xs -> stops p rest -> k rest = Some r -> star_g p (xs ++ rest) k = Some r.
Proof. intros p xs rest k r Hx Hs Hk. apply star_g_rightmost; [exact Hx|apply nolater_stops; exact Hs|exact Hk]. Qed.

(* Blocks.  The condition `nolater` is established block by block: the continuation fails at every
   position of ys strictly to the right of its start (fail), or at every position, start and end
   included (allfail); rest is the text after the block. *)
Definition fail (k : str -> option caps) (ys rest : str) : Prop :=
  forall u v, ys = u ++ v -> u <> [] -> k (v ++ rest) = None.
Definition allfail (k : str -> option caps) (ys rest : str) : Prop :=
  forall u v, ys = u ++ v -> k (v ++ rest) = None.

Lemma fail_cons : forall k y ys rest, allfail k ys rest -> fail k (y :: ys) rest.
Proof.
  intros k y ys rest H u v E Hu. destruct u as [|a u]; [congruence|].
  cbn in E. injection E as _ E. eapply H; eauto.
Qed.

Lemma fail_app : forall k a b rest, fail k a (b ++ rest) -> fail k b rest -> fail k (a ++ b) rest.
Proof.
  intros k a b rest Ha Hb u v E Hu.
  apply app_eq_app in E. destruct E as [l [[-> ->]|[-> ->]]].
  - rewrite <- app_assoc. apply (Ha u l eq_refl Hu).
  - (* the cut is inside b (or at its start) *)
    destruct l as [|c l].
    + rewrite app_nil_r in Hu. cbn [app]. apply (Ha a [] (eq_sym (app_nil_r a)) Hu).
    + apply (Hb (c :: l) v eq_refl). discriminate.
Qed.

Lemma fail_single : forall k y rest, k rest = None -> fail k [y] rest.
Proof.
  intros k y rest H. apply fail_cons. intros u v E.
  destruct u; destruct v; try discriminate. exact H.
Qed.

Lemma nolater_fail : forall p k ys rest, fail k ys rest -> stops p rest -> nolater p k (ys ++ rest).
Proof.
  intros p k ys rest Hf Hs u v E Hu Hp.
  apply app_eq_app in E. destruct E as [l [[-> ->]|[-> ->]]]; [apply (Hf u l eq_refl Hu)|].
  destruct l as [|c l].
  - rewrite app_nil_r in Hu. apply (Hf ys [] (eq_sym (app_nil_r ys)) Hu).
  - (* the run would extend into rest *)
    apply Forall_app in Hp. destruct Hp as [_ Hp]. inversion Hp; subst. cbn in Hs. congruence.
Qed.

Lemma nolater_fail_end : forall p k ys, fail k ys [] -> nolater p k ys.
Proof. intros p k ys Hf. rewrite <- (app_nil_r ys). apply nolater_fail; [exact Hf|exact I]. Qed.

Lemma star_g_back1 : forall p xs x rest k r,
  ptrue p xs -> p x = true -> stops p rest -> k rest = None -> k (x :: rest) = Some r ->
  star_g p (xs ++ x :: rest) k = Some r.
Proof.
  intros p xs x rest k r Hx _ Hs Hn Hk. apply star_g_rightmost; [exact Hx| |exact Hk].
  apply (nolater_fail p k [x] rest); [apply fail_single; exact Hn|exact Hs].
Qed.

(* inversion: a successful star consumed a block of p-characters *)
Lemma star_g_inv : forall p s k r, star_g p s k = Some r ->
  exists xs rest, s = xs ++ rest /\ ptrue p xs /\ k rest = Some r.
Proof.
  intros p s k r. induction s as [|c s IH]; cbn [star_g]; intros H.
  - exists [], []. repeat split; [constructor|exact H].
  - destruct (p c) eqn:Hc.
    + destruct (star_g p s k) as [r'|] eqn:E.
      * injection H as ->. destruct (IH eq_refl) as (xs & rest & -> & Hx & Hk).
        exists (c :: xs), rest. repeat split; [constructor; assumption|exact Hk].
      * exists [], (c :: s). repeat split; [constructor|exact H].
    + exists [], (c :: s). repeat split; [constructor|exact H].
Qed.

Lemma star_l_inv : forall p s k r, star_l p s k = Some r ->
  exists xs rest, s = xs ++ rest /\ ptrue p xs /\ k rest = Some r.
Proof.
  intros p s k r. induction s as [|c s IH]; cbn [star_l]; intros H.
  - destruct (k []) eqn:E; [|discriminate]. injection H as ->.
    exists [], []. repeat split; [constructor|exact E].
  - destruct (k (c :: s)) eqn:E.
    + injection H as ->. exists [], (c :: s). repeat split; [constructor|exact E].
    + destruct (p c) eqn:Hc; [|discriminate].
      destruct (IH H) as (xs & rest & -> & Hx & Hk).
      exists (c :: xs), rest. repeat split; [constructor; assumption|exact Hk].
Qed.

Lemma m_cat : forall w a b s cs k, m w (RCat a b) s cs k = m w a s cs (fun s' cs' => m w b s' cs' k).
Proof. reflexivity. Qed.

Lemma m_lit_unfold : forall w l s cs k,
  m w (RLit l) s cs k = match prefix_lit l s with Some s' => k s' cs | None => None end.
Proof. reflexivity. Qed.

Lemma m_lit_app : forall w l s cs k, m w (RLit l) (l ++ s) cs k = k s cs.
Proof. intros. cbn [m]. rewrite prefix_lit_app. reflexivity. Qed.

Lemma m_lit_inv : forall w l s cs k x, m w (RLit l) s cs k = Some x ->
  exists s', s = l ++ s' /\ k s' cs = Some x.
Proof.
  intros w l s cs k x H. cbn [m] in H. destruct (prefix_lit l s) as [s'|] eqn:E; [|discriminate].
  exists s'. split; [apply prefix_lit_inv; exact E|exact H].
Qed.

Lemma m_lit_none : forall w l s cs k, starts_with l s = false -> m w (RLit l) s cs k = None.
Proof.
  intros w l s cs k H. rewrite m_lit_unfold. rewrite starts_with_prefix_lit in H.
  destruct (prefix_lit l s); [discriminate|reflexivity].
Qed.

Lemma m_grp : forall w n r s cs k,
  m w (RGrp n r) s cs k = m w r s cs (fun s' cs' => k s' ((n, firstn (List.length s - List.length s') s) :: cs')).
Proof. reflexivity. Qed.

Lemma m_star_g : forall w c s cs k, m w (RStar true c) s cs k = star_g (cmatch c) s (fun s' => k s' cs).
Proof. reflexivity. Qed.

Lemma m_plus_g : forall w c d s cs k, cmatch c d = true ->
  m w (RPlus true c) (d :: s) cs k = star_g (cmatch c) s (fun s' => k s' cs).
Proof. intros. cbn [m]. rewrite H. reflexivity. Qed.

Lemma m_star_inv : forall w g c s cs k x, m w (RStar g c) s cs k = Some x ->
  exists xs rest, s = xs ++ rest /\ ptrue (cmatch c) xs /\ k rest cs = Some x.
Proof.
  intros w g c s cs k x H. cbn [m] in H.
  destruct g; [apply star_g_inv in H|apply star_l_inv in H]; exact H.
Qed.

Lemma m_plus_inv : forall w g c s cs k x, m w (RPlus g c) s cs k = Some x ->
  exists xs rest, s = xs ++ rest /\ xs <> [] /\ ptrue (cmatch c) xs /\ k rest cs = Some x.
Proof.
  intros w g c s cs k x H. cbn [m] in H. destruct s as [|d s]; [discriminate|].
  destruct (cmatch c d) eqn:Hd; [|discriminate].
  assert (exists xs rest, s = xs ++ rest /\ ptrue (cmatch c) xs /\ k rest cs = Some x) as (xs & rest & -> & Hx & Hk).
  { destruct g; [apply star_g_inv in H|apply star_l_inv in H]; exact H. }
  exists (d :: xs), rest. repeat split; [discriminate|constructor; assumption|exact Hk].
Qed.

(* any successful match hands a SUFFIX of its input to the continuation *)
Lemma m_suffix : forall r w s cs k x, m w r s cs k = Some x ->
  exists u s' cs', s = u ++ s' /\ k s' cs' = Some x.
Proof.
  induction r as [l|c|g c|g c|g c|a IHa b IHb|a IHa b IHb|n r IH| | |]; intros w s cs k x H.
  - apply m_lit_inv in H. destruct H as (s' & -> & H). eauto.
  - cbn [m] in H. destruct s as [|d s]; [discriminate|]. destruct (cmatch c d); [|discriminate].
    exists [d], s, cs. auto.
  - apply m_star_inv in H. destruct H as (xs & rest & -> & _ & H). eauto.
  - apply m_plus_inv in H. destruct H as (xs & rest & -> & _ & _ & H). eauto.
  - cbn [m] in H. destruct s as [|d s]; [exists [], [], cs; auto|].
    destruct (cmatch c d).
    + destruct g.
      * destruct (k s cs) eqn:E; [injection H as ->; exists [d], s, cs; auto | exists [], (d :: s), cs; auto].
      * destruct (k (d :: s) cs) eqn:E; [injection H as ->; exists [], (d :: s), cs; auto | exists [d], s, cs; auto].
    + exists [], (d :: s), cs. auto.
  - rewrite m_cat in H. apply IHa in H. destruct H as (u & s' & cs' & -> & H).
    apply IHb in H. destruct H as (u' & s'' & cs'' & -> & H).
    exists (u ++ u'), s'', cs''. rewrite app_assoc. auto.
  - cbn [m] in H. destruct (m w a s cs k) eqn:E.
    + injection H as ->. eapply IHa; eauto.
    + eapply IHb; eauto.
  - rewrite m_grp in H. apply IH in H. destruct H as (u & s' & cs' & -> & H). eauto.
  - cbn [m] in H. destruct (Nat.eqb _ _); [|discriminate]. exists [], s, cs. auto.
  - cbn [m] in H. destruct (eol s); [|discriminate]. exists [], s, cs. auto.
  - cbn [m] in H. exists [], s, cs. auto.
Qed.

(* the continuation at top level: group 0 is what has been consumed of v *)
Definition k_end (v : str) : str -> caps -> option caps :=
  fun s' cs => Some ((0%nat, firstn (List.length v - List.length s') v) :: cs).

Lemma search_from_unfold : forall w r s n,
  search_from w r s n =
  match m w r s [] (k_end s) with
  | Some cs => Some (n, cs)
  | None => match s with [] => None | _ :: s' => search_from w r s' (S n) end
  end.
Proof. intros w r s n. destruct s; reflexivity. Qed.

Lemma search_from_hit : forall w r s n cs,
  m w r s [] (k_end s) = Some cs -> search_from w r s n = Some (n, cs).
Proof. intros w r s n cs H. rewrite search_from_unfold, H. reflexivity. Qed.

Lemma search_from_inv : forall w r s n i cs, search_from w r s n = Some (i, cs) ->
  exists u v, s = u ++ v /\ m w r v [] (k_end v) = Some cs.
Proof.
  intros w r s. induction s as [|c s IH]; intros n i cs H; rewrite search_from_unfold in H.
  - destruct (m w r [] [] _) eqn:E; [|discriminate]. injection H as _ ->. exists [], []. auto.
  - destruct (m w r (c :: s) [] _) eqn:E.
    + injection H as _ ->. exists [], (c :: s). auto.
    + destruct (IH _ _ _ H) as (u & v & -> & Hm). exists (c :: u), v. auto.
Qed.

Lemma search_from_none : forall w r s n,
  (forall u v, s = u ++ v ->
     m w r v [] (fun s' cs => Some ((0%nat, firstn (List.length v - List.length s') v) :: cs)) = None) ->
  search_from w r s n = None.
Proof.
  intros w r s. induction s as [|c s IH]; intros n H; cbn [search_from].
  - rewrite (H [] [] eq_refl). reflexivity.
  - rewrite (H [] (c :: s) eq_refl). apply IH. intros u v E. apply (H (c :: u) v). cbn. congruence.
Qed.

Lemma search_from_some : forall w r u v n,
  m w r v [] (k_end v) <> None -> search_from w r (u ++ v) n <> None.
Proof.
  intros w r u v. induction u as [|c u IH]; intros n H; cbn [app].
  - destruct (m w r v [] _) as [cs|] eqn:E; [|congruence].
    rewrite (search_from_hit _ _ _ n cs E). discriminate.
  - rewrite search_from_unfold. destruct (m w r (c :: u ++ v) [] _); [discriminate|]. apply IH. exact H.
Qed.

(* greedy plus / star at the matcher level, and inside a capture group *)
Lemma m_star_rightmost : forall w c xs t cs k r,
  ptrue (cmatch c) xs -> nolater (cmatch c) (fun s => k s cs) t -> k t cs = Some r ->
  m w (RStar true c) (xs ++ t) cs k = Some r.
Proof. intros w c xs t cs k r Hx Hn Hk. rewrite m_star_g. apply star_g_rightmost; assumption. Qed.

Lemma m_plus_rightmost : forall w c xs t cs k r,
  xs <> [] -> ptrue (cmatch c) xs -> nolater (cmatch c) (fun s => k s cs) t -> k t cs = Some r ->
  m w (RPlus true c) (xs ++ t) cs k = Some r.
Proof.
  intros w c xs t cs k r Hne Hx Hn Hk.
  destruct xs as [|x xs]; [congruence|]. inversion Hx as [|? ? Hpx Hx']; subst.
  cbn [app]. rewrite m_plus_g by exact Hpx. apply star_g_rightmost; assumption.
Qed.

(* inside a group the capture handed to k depends on where the run ends, so the failure of k at the
   later ends is required for every capture list *)
Lemma m_grp_star_rightmost : forall w n c xs t cs k r,
  ptrue (cmatch c) xs -> (forall cs', nolater (cmatch c) (fun s => k s cs') t) -> k t ((n, xs) :: cs) = Some r ->
  m w (RGrp n (RStar true c)) (xs ++ t) cs k = Some r.
Proof.
  intros w n c xs t cs k r Hx Hn Hk. rewrite m_grp. apply m_star_rightmost; [exact Hx| |].
  - intros u v E Hu Hp. apply (Hn _ u v E Hu Hp).
  - rewrite firstn_len_app. exact Hk.
Qed.

Lemma m_grp_plus_rightmost : forall w n c xs t cs k r,
  xs <> [] -> ptrue (cmatch c) xs -> (forall cs', nolater (cmatch c) (fun s => k s cs') t) ->
  k t ((n, xs) :: cs) = Some r ->
  m w (RGrp n (RPlus true c)) (xs ++ t) cs k = Some r.
Proof.
  intros w n c xs t cs k r Hne Hx Hn Hk. rewrite m_grp. apply m_plus_rightmost; [exact Hne|exact Hx| |].
  - intros u v E Hu Hp. apply (Hn _ u v E Hu Hp).
  - rewrite firstn_len_app. exact Hk.
Qed.

Lemma m_grp_star_inv : forall w n g c s cs k x, m w (RGrp n (RStar g c)) s cs k = Some x ->
  exists xs rest, s = xs ++ rest /\ ptrue (cmatch c) xs /\ k rest ((n, xs) :: cs) = Some x.
Proof.
  intros w n g c s cs k x H. rewrite m_grp in H. apply m_star_inv in H.
  destruct H as (xs & rest & -> & Hx & Hk). rewrite firstn_len_app in Hk. exists xs, rest. auto.
Qed.

Lemma m_grp_plus_inv : forall w n g c s cs k x, m w (RGrp n (RPlus g c)) s cs k = Some x ->
  exists xs rest, s = xs ++ rest /\ xs <> [] /\ ptrue (cmatch c) xs /\ k rest ((n, xs) :: cs) = Some x.
Proof.
  intros w n g c s cs k x H. rewrite m_grp in H. apply m_plus_inv in H.
  destruct H as (xs & rest & -> & Hne & Hx & Hk). rewrite firstn_len_app in Hk.
  exists xs, rest. auto.
Qed.

Lemma m_eol_inv : forall w s cs k x, m w REol s cs k = Some x -> (s = [] \/ s = [nl]) /\ k s cs = Some x.
Proof.
  intros w s cs k x H. cbn [m] in H. destruct (eol s) eqn:E; [|discriminate]. split; [|exact H].
  destruct s as [|c [|d s]]; cbn in E; try discriminate; [left; reflexivity|].
  right. apply Ascii.eqb_eq in E. subst c. reflexivity.
Qed.

Lemma m_eol_ok : forall w s cs k, s = [] \/ s = [nl] -> m w REol s cs k = k s cs.
Proof. intros w s cs k [->| ->]; reflexivity. Qed.

Definition wordy (s : str) : Prop := Forall (fun c => is_word c = true) s.
Definition nonl (s : str) : Prop := Forall (fun c => Ascii.eqb c nl = false) s.

Lemma nonl_ptrue : forall s, nonl s -> ptrue (cmatch CAny) s.
Proof. intros s H. eapply Forall_impl; [|exact H]. cbn. intros a Ha. rewrite Ha. reflexivity. Qed.
Lemma ptrue_nonl : forall s, ptrue (cmatch CAny) s -> nonl s.
Proof. intros s H. eapply Forall_impl; [|exact H]. cbn. intros a Ha. apply negb_true_iff. exact Ha. Qed.
Lemma ptrue_app : forall p a b, ptrue p a -> ptrue p b -> ptrue p (a ++ b).
Proof. intros. apply Forall_app. auto. Qed.
Lemma nonl_app : forall a b, nonl a -> nonl b -> nonl (a ++ b).
Proof. intros. apply Forall_app. auto. Qed.
(* for a concrete text: decided by evaluation *)
Lemma nonl_lit : forall (l : str), forallb (fun c => negb (Ascii.eqb c nl)) l = true -> nonl l.
Proof.
  intros l H. apply Forall_forall. intros c Hc. rewrite forallb_forall in H. apply H in Hc.
  apply negb_true_iff. exact Hc.
Qed.
Lemma wordy_lit : forall (l : str), forallb is_word l = true -> wordy l.
Proof. intros l H. apply Forall_forall. apply forallb_forall. exact H. Qed.

Lemma re_split_resolved_eq :
  re_split_resolved_shortcode_0 =
  RCat (RLit (s2l "insn(")) (RCat (RGrp 1 (RPlus true CWord)) (RCat (RLit (s2l ", "))
       (RCat (RGrp 2 (RPlus true CAny)) (RCat (RLit (s2l ")")) REol)))).
Proof. reflexivity. Qed.

Definition shaped (v name body tail : str) : Prop :=
  v = s2l "insn(" ++ name ++ s2l ", " ++ body ++ s2l ")" ++ tail /\
  name <> [] /\ wordy name /\ body <> [] /\ nonl body /\ (tail = [] \/ tail = [nl]).

(* the match at a position where the text has the expected shape *)
Lemma m_resolved : forall w k0 name body tail v r, shaped v name body tail ->
  k0 tail [(2%nat, body); (1%nat, name)] = Some r ->
  m w re_split_resolved_shortcode_0 v [] k0 = Some r.
Proof.
  intros w k0 name body tail v r (-> & Hn & Hw & Hb & Hnl & Ht) Hk0.
  rewrite re_split_resolved_eq, m_cat, m_lit_app, m_cat.
  apply m_grp_plus_rightmost; [exact Hn|exact Hw|intros cs'; apply nolater_stops; reflexivity|].
  rewrite m_cat, m_lit_app, m_cat.
  apply m_grp_plus_rightmost; [exact Hb|apply nonl_ptrue; exact Hnl| |].
  - (* BODY ends at the LAST closing parenthesis *)
    intros cs'. apply nolater_fail; [|destruct Ht as [->| ->]; reflexivity].
    apply fail_single. rewrite m_cat. apply m_lit_none. destruct Ht as [->| ->]; reflexivity.
  - rewrite m_cat, m_lit_app, m_eol_ok by exact Ht. exact Hk0.
Qed.

(* inversion: whatever matches has the expected shape, and the captures are NAME and BODY *)
Lemma m_resolved_inv : forall w k0 v x, m w re_split_resolved_shortcode_0 v [] k0 = Some x ->
  exists name body tail, shaped v name body tail /\ k0 tail [(2%nat, body); (1%nat, name)] = Some x.
Proof.
  intros w k0 v x E. rewrite re_split_resolved_eq in E.
  rewrite m_cat in E. apply m_lit_inv in E. destruct E as (s1 & -> & E).
  rewrite m_cat in E. apply m_grp_plus_inv in E. destruct E as (name & r1 & -> & Hn & Hw & E).
  rewrite m_cat in E. apply m_lit_inv in E. destruct E as (s2 & -> & E).
  rewrite m_cat in E. apply m_grp_plus_inv in E. destruct E as (body & r2 & -> & Hb & Hnl & E).
  rewrite m_cat in E. apply m_lit_inv in E. destruct E as (tail & -> & E).
  apply m_eol_inv in E. destruct E as [Ht E].
  exists name, body, tail. split; [|exact E].
  repeat split; try assumption. apply ptrue_nonl. exact Hnl.
Qed.

(* NAME and BODY are recovered exactly, whatever BODY contains *)
Theorem split_line_roundtrip :
  forall (name body tail : str), name <> [] -> Forall (fun c => is_word c = true) name ->
    body <> [] -> Forall (fun c => Ascii.eqb c nl = false) body -> (tail = [] \/ tail = [nl]) ->
    split_resolved (s2l "insn(" ++ name ++ s2l ", " ++ body ++ s2l ")" ++ tail) = Some (name, body).
Proof.
  intros name body tail Hn Hw Hb Hnl Ht. unfold split_resolved, rsearch.
  erewrite search_from_hit.
  2:{ eapply m_resolved; [|reflexivity]. repeat split; eassumption. }
  reflexivity.
Qed.
Print Assumptions split_line_roundtrip.

Theorem split_line_sound : forall line name body, split_resolved line = Some (name, body) ->
  exists pre tail, line = pre ++ s2l "insn(" ++ name ++ s2l ", " ++ body ++ s2l ")" ++ tail /\
    name <> [] /\ wordy name /\ body <> [] /\ nonl body /\ (tail = [] \/ tail = [nl]).
Proof.
  intros line name body H. unfold split_resolved, rsearch in H.
  destruct (search_from line re_split_resolved_shortcode_0 line 0) as [[i cs]|] eqn:E; [|discriminate].
  apply search_from_inv in E. destruct E as (pre & v & -> & E).
  apply m_resolved_inv in E. destruct E as (name' & body' & tail & Hsh & E).
  injection E as <-. cbn in H. injection H as <- <-.
  destruct Hsh as (-> & Hrest). exists pre, tail. split; [reflexivity|exact Hrest].
Qed.
Print Assumptions split_line_sound.

(* complete characterisation: a line is accepted iff SOME suffix of it has the expected shape
   (so garbage before "insn(" is accepted -- see split_accepts_prefix_garbage) *)
Theorem split_line_accepts_iff : forall line,
  split_resolved line <> None <->
  exists pre name body tail, line = pre ++ s2l "insn(" ++ name ++ s2l ", " ++ body ++ s2l ")" ++ tail /\
    name <> [] /\ wordy name /\ body <> [] /\ nonl body /\ (tail = [] \/ tail = [nl]).
Proof.
  intros line. split.
  - destruct (split_resolved line) as [[name body]|] eqn:E; [intros _|congruence].
    destruct (split_line_sound _ _ _ E) as (pre & tail & H). exists pre, name, body, tail. exact H.
  - intros (pre & name & body & tail & -> & Hrest). unfold split_resolved, rsearch.
    match goal with |- context [search_from ?w ?r ?s ?n] => destruct (search_from w r s n) as [[i cs]|] eqn:E end.
    + apply search_from_inv in E. destruct E as (u & v & _ & E).
      apply m_resolved_inv in E. destruct E as (n' & b' & t' & _ & E). injection E as <-. cbn. discriminate.
    + exfalso. revert E. apply search_from_some.
      erewrite m_resolved; [discriminate| |reflexivity]. split; [reflexivity|exact Hrest].
Qed.
Print Assumptions split_line_accepts_iff.

Theorem split_line_rejects : forall line, contains (s2l "insn(") line = false -> split_resolved line = None.
Proof.
  intros line H. destruct (split_resolved line) as [[name body]|] eqn:E; [|reflexivity].
  destruct (split_line_sound _ _ _ E) as (pre & tail & -> & _).
  rewrite contains_suffix in H; [discriminate|]. apply starts_with_app.
Qed.
Print Assumptions split_line_rejects.

(* further decidable rejections that follow from the characterisation *)
Corollary split_line_rejects_no_close : forall line,
  existsb (Ascii.eqb ")") line = false -> split_resolved line = None.
Proof.
  intros line H. destruct (split_resolved line) as [[name body]|] eqn:E; [|reflexivity].
  destruct (split_line_sound _ _ _ E) as (pre & tail & -> & _).
  rewrite !existsb_app in H. cbn in H. rewrite !orb_true_r in H. discriminate.
Qed.

Corollary split_line_rejects_trailing : forall line c d, c <> ")" -> d <> ")" ->
  split_resolved (line ++ [c; d]) = None.
Proof.
  intros line c d Hc Hd. destruct (split_resolved (line ++ [c; d])) as [[name body]|] eqn:E; [|reflexivity].
  destruct (split_line_sound _ _ _ E) as (pre & tail & H & _ & _ & _ & _ & Ht). exfalso.
  apply (f_equal (@rev _)) in H. rewrite !rev_app_distr in H. cbn in H.
  destruct Ht as [->| ->]; cbn in H; injection H; intros; subst; congruence.
Qed.

Example split_accepts_prefix_garbage : split_resolved (s2l "xinsn(A, {})") = Some (s2l "A", s2l "{}").
Proof. vm_compute. reflexivity. Qed.
Print Assumptions split_accepts_prefix_garbage.

(* split_line_roundtrip applied to a real line *)
Example split_line_roundtrip_J2_jump :
  split_resolved (s2l "insn(J2_jump, {(riV); riV = (riV & ~(4 - 1)); JUMP((HEX_REG_ALIAS_PC)+riV);})")
  = Some (s2l "J2_jump", s2l "{(riV); riV = (riV & ~(4 - 1)); JUMP((HEX_REG_ALIAS_PC)+riV);}").
Proof.
  pose proof (split_line_roundtrip (s2l "J2_jump")
                (s2l "{(riV); riV = (riV & ~(4 - 1)); JUMP((HEX_REG_ALIAS_PC)+riV);}") []) as H.
  rewrite app_nil_r in H.
  apply H; [discriminate|apply wordy_lit; reflexivity|discriminate|apply nonl_lit; reflexivity|left; reflexivity].
Qed.
Print Assumptions split_line_roundtrip_J2_jump.

(* the factors of re_split_compounds_0 after its leading  \{.*  *)
Definition rc_g1 : re := RGrp 1 (RCat (RLit (s2l "{")) (RCat (RPlus true CAny) (RLit (s2l "}")))).
Definition rc_tail : re := RCat (RLit marker) (RCat (RGrp 2 (RStar true CAny)) (RCat (RLit (s2l "}")) REol)).
Definition rc_k : re := RCat (RLit marker) (RCat rc_g1 rc_tail).
Lemma re_split_compounds_eq :
  re_split_compounds_0 = RCat (RLit (s2l "{")) (RCat (RStar true CAny) rc_k).
Proof. reflexivity. Qed.

Lemma marker_no_open : existsb (Ascii.eqb "{") marker = false. Proof. reflexivity. Qed.
Lemma marker_no_close : existsb (Ascii.eqb "}") marker = false. Proof. reflexivity. Qed.
Lemma marker_ne : marker <> []. Proof. discriminate. Qed.

(* failure lemmas for continuations that must start with a literal L *)
Lemma allfail_cut : forall k L c ys rest,
  (forall s x, k s = Some x -> starts_with L s = true) ->
  existsb (Ascii.eqb c) L = false -> contains L ys = false -> allfail k ys (c :: rest).
Proof.
  intros k L c ys rest Hk Hc Hys u v -> .
  destruct (k (v ++ c :: rest)) eqn:E; [|reflexivity]. exfalso.
  apply Hk in E. apply starts_with_cut in E; [|exact Hc].
  rewrite (contains_suffix L u v E) in Hys. discriminate.
Qed.

Lemma fail_lit : forall k L c rest,
  (forall s x, k s = Some x -> starts_with L s = true) ->
  existsb (Ascii.eqb c) L = false -> fail k L (c :: rest).
Proof.
  intros k L c rest Hk Hc u v E Hu.
  destruct (k (v ++ c :: rest)) eqn:E'; [|reflexivity]. exfalso.
  apply Hk in E'. apply starts_with_cut in E'; [|exact Hc].
  apply starts_with_length in E'. rewrite E, app_length in E'.
  destruct u; [congruence|cbn in E'; lia].
Qed.

Lemma allfail_contains : forall k L ys rest,
  (forall s x, k s = Some x -> starts_with L s = true) ->
  contains L (ys ++ rest) = false -> allfail k ys rest.
Proof.
  intros k L ys rest Hk Hc u v -> .
  destruct (k (v ++ rest)) eqn:E; [|reflexivity]. exfalso.
  apply Hk in E. rewrite <- app_assoc in Hc. rewrite (contains_suffix L u _ E) in Hc. discriminate.
Qed.

(* a continuation that needs L and then another L later fails everywhere in L ++ z when z is L-free *)
Lemma allfail_two : forall k L z,
  (forall s x, k s = Some x -> exists s', s = L ++ s' /\ contains L s' = true) ->
  contains L z = false -> allfail k (L ++ z) [].
Proof.
  intros k L z Hk Hz u v E.
  destruct (k (v ++ [])) eqn:E'; [|reflexivity]. exfalso.
  rewrite app_nil_r in E'. apply Hk in E'. destruct E' as (s' & -> & Hs').
  rewrite app_assoc in E. apply app_suffix_len in E; [|rewrite app_length; lia].
  destruct E as (w & ->). rewrite (contains_app_r L w s' Hs') in Hz. discriminate.
Qed.

(* what the part of the regex after the leading  \{.*  needs *)
Lemma rc_k_needs : forall w s cs k x, m w rc_k s cs k = Some x ->
  exists s', s = marker ++ s' /\ contains marker s' = true.
Proof.
  intros w s cs k x H. unfold rc_k in H. rewrite m_cat in H. apply m_lit_inv in H.
  destruct H as (s' & -> & H). exists s'. split; [reflexivity|].
  rewrite m_cat in H. apply m_suffix in H. destruct H as (u & s'' & cs' & -> & H).
  unfold rc_tail in H. rewrite m_cat in H. apply m_lit_inv in H. destruct H as (s3 & -> & _).
  apply contains_suffix. apply starts_with_app.
Qed.

Lemma rc_k_starts : forall w s cs k x, m w rc_k s cs k = Some x -> starts_with marker s = true.
Proof. intros w s cs k x H. apply rc_k_needs in H. destruct H as (s' & -> & _). apply starts_with_app. Qed.

(* the match on a well-formed two-part body *)
Lemma m_compounds : forall w k0 pre p1 p2 r,
  contains marker p1 = false -> contains marker p2 = false ->
  p1 <> [] -> nonl pre -> nonl p1 -> nonl p2 ->
  k0 [] [(2%nat, p2); (1%nat, s2l "{" ++ p1 ++ s2l "}")] = Some r ->
  m w re_split_compounds_0
    (s2l "{" ++ pre ++ marker ++ s2l "{" ++ p1 ++ s2l "}" ++ marker ++ p2 ++ s2l "}") [] k0 = Some r.
Proof.
  intros w k0 pre p1 p2 r Hc1 Hc2 Hne Hpre Hp1 Hp2 Hk0.
  assert (Hc2' : contains marker (p2 ++ s2l "}") = false).
  { apply contains_cut_false; auto using marker_no_close, marker_ne. }
  rewrite re_split_compounds_eq, m_cat, m_lit_app, m_cat.
  apply m_star_rightmost; [apply nonl_ptrue; exact Hpre| |].
  - (* the rest of the regex fails at every position to the right of the first marker: inside the
       marker, inside "{" p1, and from "}" on, where only one marker is left *)
    apply nolater_fail_end, fail_app; [|apply (fail_app _ (s2l "{" ++ p1))].
    + apply fail_lit with (L := marker); [|exact marker_no_open]. intros s x. apply rc_k_starts.
    + apply fail_cons, allfail_cut with (L := marker); [|exact marker_no_close|exact Hc1].
      intros s x. apply rc_k_starts.
    + apply fail_cons, allfail_two; [|exact Hc2']. intros s x. apply rc_k_needs.
  - unfold rc_k at 1, rc_g1. rewrite m_cat, m_lit_app, m_cat, m_grp, m_cat, m_lit_app, m_cat.
    apply m_plus_rightmost; [exact Hne|apply nonl_ptrue; exact Hp1| |].
    + (* "}" followed by the marker occurs nowhere further right *)
      apply nolater_fail_end, fail_cons, allfail_contains with (L := "}" :: marker).
      * intros s x H. apply m_lit_inv in H. destruct H as (s1 & -> & H).
        unfold rc_tail in H. rewrite m_cat in H. apply m_lit_inv in H. destruct H as (s2 & -> & _).
        exact (starts_with_app ("}" :: marker) s2).
      * rewrite app_nil_r, contains_skip by exact marker_no_close.
        destruct (contains ("}" :: marker) (p2 ++ s2l "}")) eqn:E; [|reflexivity].
        apply contains_tail in E. congruence.
    + rewrite m_lit_app. unfold rc_tail. rewrite m_cat, m_lit_app, m_cat.
      apply m_grp_star_rightmost; [apply nonl_ptrue; exact Hp2| |].
      * intros cs'. apply nolater_fail_end, fail_single. reflexivity.
      * rewrite m_cat, (m_lit_app w (s2l "}") []). cbn [m eol]. rewrite <- Hk0. do 4 f_equal.
        (* group 1 is the text consumed since the group was entered: all but the remaining suffix *)
        replace (s2l "{" ++ p1 ++ s2l "}" ++ marker ++ p2 ++ s2l "}")
          with ((s2l "{" ++ p1 ++ s2l "}") ++ marker ++ p2 ++ s2l "}") by (rewrite <- !app_assoc; reflexivity).
        apply firstn_len_app.
Qed.

(* the two parts are recovered whatever `pre` is: it may even contain the marker, and "_", "{" and
   "}" may occur anywhere (split_compounds_spec below carries the unused premise on `pre`) *)
Theorem split_compounds_spec_strong :
  forall (pre p1 p2 : str), contains marker p1 = false -> contains marker p2 = false ->
    p1 <> [] -> nonl pre -> nonl p1 -> nonl p2 ->
    split_compounds (s2l "{" ++ pre ++ marker ++ s2l "{" ++ p1 ++ s2l "}" ++ marker ++ p2 ++ s2l "}")
      = Some (s2l "{" ++ p1 ++ s2l "}", s2l "{" ++ p2 ++ s2l "}").
Proof.
  intros pre p1 p2 Hc1 Hc2 Hne Hpre Hp1 Hp2. unfold split_compounds, rmatch.
  erewrite m_compounds; try eassumption; [|reflexivity].
  reflexivity.
Qed.
Print Assumptions split_compounds_spec_strong.

Definition split_compounds_spec_statement : Prop :=
  forall (pre p1 p2 : str), contains marker pre = false -> contains marker p1 = false -> contains marker p2 = false ->
    p1 <> [] ->
    Forall (fun c => Ascii.eqb c nl = false) pre -> Forall (fun c => Ascii.eqb c nl = false) p1 ->
    Forall (fun c => Ascii.eqb c nl = false) p2 ->
    split_compounds (s2l "{" ++ pre ++ marker ++ s2l "{" ++ p1 ++ s2l "}" ++ marker ++ p2 ++ s2l "}")
      = Some (s2l "{" ++ p1 ++ s2l "}", s2l "{" ++ p2 ++ s2l "}").

Theorem split_compounds_spec : split_compounds_spec_statement.
Proof. intros pre p1 p2 _ Hc1 Hc2 Hne Hpre Hp1 Hp2. apply split_compounds_spec_strong; assumption. Qed.
Print Assumptions split_compounds_spec.

(* text before the first marker is silently dropped *)
Example split_compounds_drops_prefix :
  split_compounds (s2l "{RdV = 1; __COMPOUND_PART1__{ P0 = 1; }__COMPOUND_PART1__ RdV = 2; }")
  = Some (s2l "{ P0 = 1; }", s2l "{ RdV = 2; }").
Proof. vm_compute. reflexivity. Qed.
Print Assumptions split_compounds_drops_prefix.

(* the returned parts do not depend on (hence never contain anything of) `pre` *)
Corollary split_compounds_ignores_pre :
  forall (pre pre' p1 p2 : str), contains marker p1 = false -> contains marker p2 = false ->
    p1 <> [] -> nonl pre -> nonl pre' -> nonl p1 -> nonl p2 ->
    split_compounds (s2l "{" ++ pre ++ marker ++ s2l "{" ++ p1 ++ s2l "}" ++ marker ++ p2 ++ s2l "}")
    = split_compounds (s2l "{" ++ pre' ++ marker ++ s2l "{" ++ p1 ++ s2l "}" ++ marker ++ p2 ++ s2l "}").
Proof. intros. rewrite !split_compounds_spec_strong; auto. Qed.
Print Assumptions split_compounds_ignores_pre.

Definition nonblank (s : str) : str := filter (fun c => negb (is_space c)) s.

Lemma nonblank_nil_iff : forall s, nonblank s = [] <-> forallb is_space s = true.
Proof.
  induction s as [|c s IH]; cbn; [tauto|].
  destruct (is_space c); cbn; [exact IH|]. split; discriminate.
Qed.

(* "splitting loses nothing" (up to white space) holds exactly when the text before the first
   marker is blank *)
Theorem split_compounds_lossless_iff_pre_blank :
  forall (pre p1 p2 : str), contains marker p1 = false -> contains marker p2 = false ->
    p1 <> [] -> nonl pre -> nonl p1 -> nonl p2 ->
    exists q1 q2,
      split_compounds (s2l "{" ++ pre ++ marker ++ s2l "{" ++ p1 ++ s2l "}" ++ marker ++ p2 ++ s2l "}")
        = Some (s2l "{" ++ q1 ++ s2l "}", s2l "{" ++ q2 ++ s2l "}") /\
      (nonblank (q1 ++ q2) = nonblank (pre ++ p1 ++ p2) <-> forallb is_space pre = true).
Proof.
  intros pre p1 p2 Hc1 Hc2 Hne Hpre Hp1 Hp2. exists p1, p2.
  split; [apply split_compounds_spec_strong; assumption|].
  rewrite <- nonblank_nil_iff. unfold nonblank. rewrite (filter_app _ pre (p1 ++ p2)).
  split; intros H.
  - apply (f_equal (@List.length _)) in H. rewrite app_length in H.
    destruct (filter _ pre); [reflexivity|cbn in H; lia].
  - rewrite H. reflexivity.
Qed.
Print Assumptions split_compounds_lossless_iff_pre_blank.

Lemma load_line_cons : forall c t, c <> "#" ->
  load_line (c :: t) =
  match split_resolved (c :: t) with
  | None => LErr
  | Some (n, b) =>
      if contains marker b then
        match split_compounds b with Some (b1, b2) => LTwo n b1 b2 | None => LErr end
      else LOne n b
  end.
Proof.
  (* the pattern "#" :: _ on an ascii compiles to eight nested matches on its bits; following them one
     by one leaves the default branch at once on the other side, instead of 256 cases *)
  intros c t Hc. destruct c as [b0 b1 b2 b3 b4 b5 b6 b7].
  destruct b0; [|reflexivity]. destruct b1; [|reflexivity]. destruct b2; [reflexivity|].
  destruct b3; [reflexivity|]. destruct b4; [reflexivity|]. destruct b5; [|reflexivity].
  destruct b6; [reflexivity|]. destruct b7; [reflexivity|]. congruence.
Qed.

Theorem load_line_skip : forall rest, load_line ("#" :: rest) = LSkip.
Proof. reflexivity. Qed.

Theorem load_line_empty : load_line [] = LErr.
Proof. reflexivity. Qed.

(* a well-formed instruction line is split by split_resolved; what remains is the choice on the marker *)
Lemma load_line_insn : forall name body tail,
  name <> [] -> wordy name -> body <> [] -> nonl body -> (tail = [] \/ tail = [nl]) ->
  load_line (s2l "insn(" ++ name ++ s2l ", " ++ body ++ s2l ")" ++ tail) =
  if contains marker body
  then match split_compounds body with Some (b1, b2) => LTwo name b1 b2 | None => LErr end
  else LOne name body.
Proof.
  intros name body tail Hn Hw Hb Hnl Ht.
  pose proof (split_line_roundtrip name body tail Hn Hw Hb Hnl Ht) as H.
  change (s2l "insn(" ++ name ++ s2l ", " ++ body ++ s2l ")" ++ tail)
    with ("i" :: s2l "nsn(" ++ name ++ s2l ", " ++ body ++ s2l ")" ++ tail) in *.
  rewrite load_line_cons by discriminate. rewrite H. reflexivity.
Qed.

(* an ordinary instruction line *)
Theorem load_line_spec :
  forall (name body tail : str), name <> [] -> Forall (fun c => is_word c = true) name ->
    body <> [] -> Forall (fun c => Ascii.eqb c nl = false) body -> (tail = [] \/ tail = [nl]) ->
    contains marker body = false ->
    load_line (s2l "insn(" ++ name ++ s2l ", " ++ body ++ s2l ")" ++ tail) = LOne name body.
Proof.
  intros name body tail Hn Hw Hb Hnl Ht Hm. rewrite load_line_insn by assumption. rewrite Hm. reflexivity.
Qed.
Print Assumptions load_line_spec.

(* a compound instruction line: both parts are recovered, text before the first marker is lost *)
Theorem load_line_spec_compound :
  forall (name pre p1 p2 tail : str), name <> [] -> Forall (fun c => is_word c = true) name ->
    (tail = [] \/ tail = [nl]) ->
    contains marker p1 = false -> contains marker p2 = false -> p1 <> [] -> nonl pre -> nonl p1 -> nonl p2 ->
    load_line (s2l "insn(" ++ name ++ s2l ", " ++
               (s2l "{" ++ pre ++ marker ++ s2l "{" ++ p1 ++ s2l "}" ++ marker ++ p2 ++ s2l "}")
               ++ s2l ")" ++ tail)
    = LTwo name (s2l "{" ++ p1 ++ s2l "}") (s2l "{" ++ p2 ++ s2l "}").
Proof.
  intros name pre p1 p2 tail Hn Hw Ht Hc1 Hc2 Hne Hpre Hp1 Hp2.
  rewrite load_line_insn; try assumption; [|discriminate|repeat apply nonl_app; try assumption; apply nonl_lit; reflexivity].
  rewrite split_compounds_spec_strong by assumption.
  rewrite (app_assoc (s2l "{") pre), contains_suffix by apply starts_with_app. reflexivity.
Qed.
Print Assumptions load_line_spec_compound.

(* the theorems applied to concrete texts; in the second one partial markers overlap every
   boundary between the parts *)
Example split_compounds_spec_real :
  split_compounds (s2l "{ __COMPOUND_PART1__{ P0 = 1; }__COMPOUND_PART1__ RdV = 2; }")
  = Some (s2l "{ P0 = 1; }", s2l "{ RdV = 2; }").
Proof.
  apply (split_compounds_spec (s2l " ") (s2l " P0 = 1; ") (s2l " RdV = 2; "));
    try reflexivity; try discriminate; repeat constructor.
Qed.
Print Assumptions split_compounds_spec_real.

Example split_compounds_spec_overlaps :
  split_compounds (s2l "{__COMPOUND_PART1__COMPOUND_PART1__{}_}__COMPOUND_PART1}__COMPOUND_PART1__COMPOUND_PART1__{x}_}")
  = Some (s2l "{}_}__COMPOUND_PART1}", s2l "{COMPOUND_PART1__{x}_}").
Proof.
  apply (split_compounds_spec_strong (s2l "__COMPOUND_PART1") (s2l "}_}__COMPOUND_PART1") (s2l "COMPOUND_PART1__{x}_"));
    try reflexivity; try discriminate; repeat constructor.
Qed.
Print Assumptions split_compounds_spec_overlaps.

Example load_line_spec_J2_jump :
  load_line (s2l "insn(J2_jump, {(riV); riV = (riV & ~(4 - 1)); JUMP((HEX_REG_ALIAS_PC)+riV);})")
  = LOne (s2l "J2_jump") (s2l "{(riV); riV = (riV & ~(4 - 1)); JUMP((HEX_REG_ALIAS_PC)+riV);}").
Proof.
  pose proof (load_line_spec (s2l "J2_jump")
                (s2l "{(riV); riV = (riV & ~(4 - 1)); JUMP((HEX_REG_ALIAS_PC)+riV);}") []) as H.
  rewrite app_nil_r in H.
  apply H; [discriminate|apply wordy_lit; reflexivity|discriminate|apply nonl_lit; reflexivity|left; reflexivity|reflexivity].
Qed.
Print Assumptions load_line_spec_J2_jump.
