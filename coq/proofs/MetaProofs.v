(* Obligations over the REGENERATED gen/MetaTables.v (they break when the source changes in a way
   that matters) and the history part of C13. *)
From Coq Require Import ZArith NArith List Bool String.
From RZ.model Require Import Ast Meta.
From RZ.gen Require Import MetaTables.
Import ListNotations.
Local Open Scope string_scope.

Definition mem (x : string) (l : list string) : bool := existsb (String.eqb x) l.

(* every attribute-relevant callback still sends its token *)
Lemma relevant_callbacks_send :
  sends "new_reg" "new_reg" = true /\ sends "explicit_reg" "explicit_reg" = true /\ sends "jump" "jump" = true
  /\ sends "mem_load" "mem_load" = true /\ sends "mem_store" "mem_store" = true
  /\ sends "selection_stmt" "selection_stmt" = true /\ sends "assignment_expr" "pred_write" = true
  /\ alias_new_sends_new_reg = true.
Proof. repeat split; vm_compute; reflexivity. Qed.

(* no other callback sends an attribute-relevant token (e.g. a for loop must not set COND) *)
Definition relevant_tokens := ["mem_store"; "mem_load"; "new_reg"; "jump"; "selection_stmt"; "explicit_reg"; "pred_write"].
Lemma only_expected_senders :
  forallb (fun p => forallb (fun tok => negb (mem tok relevant_tokens)
                                         || (String.eqb (fst p) tok)
                                         || (String.eqb (fst p) "assignment_expr" && String.eqb tok "pred_write")) (snd p))
          callback_tokens = true.
Proof. vm_compute. reflexivity. Qed.

(* the token table itself: each relevant token sets exactly its own flag on a clean state *)
Lemma token_effects :
  get_meta (token_effect "selection_stmt" false 0 clean) = ["HEX_IL_INSN_ATTR_COND"]
  /\ get_meta (token_effect "new_reg" false 0 clean) = ["HEX_IL_INSN_ATTR_NEW"]
  /\ get_meta (token_effect "explicit_reg" true 0 clean) = ["HEX_IL_INSN_ATTR_NEW"]
  /\ get_meta (token_effect "explicit_reg" false 0 clean) = ["HEX_IL_INSN_ATTR_NONE"]
  /\ get_meta (token_effect "mem_store" false 0 clean) = ["HEX_IL_INSN_ATTR_MEM_WRITE"]
  /\ get_meta (token_effect "mem_load" false 0 clean) = ["HEX_IL_INSN_ATTR_MEM_READ"]
  /\ get_meta (token_effect "jump" false 0 clean) = ["HEX_IL_INSN_ATTR_BRANCH"]
  /\ get_meta (token_effect "pred_write" false (-1) clean) = ["HEX_IL_INSN_ATTR_WPRED"]
  /\ get_meta (token_effect "pred_write" false 2 clean) = ["HEX_IL_INSN_ATTR_WPRED"; "HEX_IL_INSN_ATTR_WRITE_P2"]
  /\ get_meta clean = ["HEX_IL_INSN_ATTR_NONE"].
Proof. repeat split; vm_compute; reflexivity. Qed.

(* reset_flags as the source has it: a field is cleared iff it is assigned there *)
Definition reset_flags_model (f : mflags) : mflags :=
  mkmf (if mem "is_conditional" ext_reset_fields then false else f_cond f)
       (if mem "uses_new" ext_reset_fields then false else f_new f)
       (if mem "writes_mem" ext_reset_fields then false else f_memw f)
       (if mem "reads_mem" ext_reset_fields then false else f_memr f)
       (if mem "branches" ext_reset_fields then false else f_branch f)
       (if mem "writes_predicate" ext_reset_fields then false else f_wpred f)
       (if mem "preds_written" ext_reset_fields then [] else f_preds f).

Theorem reset_establishes_clean : forall f, reset_flags_model f = clean.
Proof. intros f. vm_compute. reflexivity. Qed.

(* everything get_meta reads is cleared by reset_flags; the only field mutated in place (preds_written.append)
   is re-bound per instance, so a class-level object is never shared between extensions *)
Lemma get_meta_reads_are_reset : forallb (fun x => mem x ext_reset_fields) ext_get_meta_reads = true.
Proof. vm_compute. reflexivity. Qed.
Lemma in_place_mutated_field_is_per_instance : mem "preds_written" ext_init_fields = true.
Proof. vm_compute. reflexivity. Qed.
(* the transformer's reset() calls reset_flags, and transform_insn resets before every part and on every exit path *)
Lemma entry_points_reset :
  mem "self.ext.reset_flags()" transformer_reset_calls = true
  /\ transform_insn_resets_before_each_part = true /\ entry_reset_transform_insn = "finally" /\ entry_reset_compile_c_stmt = "finally".
Proof. repeat split; vm_compute; reflexivity. Qed.

(* a history is a list of behaviours compiled one after the other on the same extension object.  compile_step puts
   reset_flags before each compilation by definition; that the source does so is what entry_points_reset records. *)
Definition compile_step (f : mflags) (p : cstmts) : mflags * list string :=
  let f' := meta_ss p (reset_flags_model f) in (f', get_meta f').
Fixpoint run_history (f : mflags) (h : list cstmts) : mflags :=
  match h with [] => f | p :: t => run_history (fst (compile_step f p)) t end.
Theorem attrs_history : forall (h : list cstmts) (f0 : mflags) (p : cstmts),
  snd (compile_step (run_history f0 h) p) = attrs p.
Proof. intros h f0 p. unfold compile_step, attrs. rewrite reset_establishes_clean. reflexivity. Qed.
