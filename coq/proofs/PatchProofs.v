(* Proofs, for ALL inputs, about the macro-patching steps of the preprocessor model (model/Pre.v):
   assoc_set / assoc_get / assoc_del, read_patches, patch_loop, patch_macros, define_name and
   replace_do_while_0.  Supports property C20.
   The specification of the loop (patch_spec, left_spec) and the tagged loop tloop take the name
   function as a parameter (Section Loop), so that what they say does not depend on the regex;
   Pre.patch_loop is related to them at Pre.define_name; define_name is characterised through its
   regex; the last two parts are about replace_do_while_0, on any text and on one line of readlines().

   What is proved
     the dictionary has distinct keys       assoc_set_nodup, read_patches_nodup, read_patches_names
     when the loop fails                    patch_loop_none_iff, patch_loop_fails_iff
     its output list                        patch_loop_total, patch_loop_spec, patch_loop_positional
     each patch at most / exactly once      tloop_inv, patch_loop_used, used_count, used_left_perm, kept_filter
     the left-over patches                  patch_loop_left, patch_loop_left_In, patch_macros_spec
     nothing to patch, nothing changes      patch_loop_unpatched
     patch_macros in one statement          patch_macros_C20
     define_name as a first-order function  define_name_eq
     replace_do_while_0 on any text         do_while_step_inv, replace_do_while_0_total, ..._id_iff, ..._no_do,
                                            do_while_step_wrapper, replace_do_while_0_wrapper, ..._one, ..._simple
     ... on one line of readlines()         m_nl, do_while_step_nl, replace_do_while_0_nl, ..._line_shape
     readings that do NOT hold              patch_loop_dedup_refuted, dw_drops_other_lines_refuted (by vm_compute) *)
From Coq Require Import List Ascii String Bool Arith Lia Permutation.
From RZ.lib Require Import Regex.
From RZ.gen Require Import Regexes.
From RZ.model Require Import Pre.
From RZ.proofs Require Import PreProofs.
Import ListNotations.
Local Open Scope char_scope.
Local Open Scope list_scope.

Lemma filter_all_id : forall (A : Type) (f : A -> bool) (l : list A),
  (forall x, In x l -> f x = true) -> filter f l = l.
Proof.
  intros A f l. induction l as [|a l IH]; intros H; cbn [filter]; [reflexivity|].
  rewrite (H a (or_introl eq_refl)). f_equal. apply IH. intros x Hx. apply H. right. exact Hx.
Qed.

Lemma filter_filter : forall (A : Type) (f g : A -> bool) (l : list A),
  filter f (filter g l) = filter (fun x => g x && f x) l.
Proof.
  intros A f g l. induction l as [|a l IH]; cbn [filter]; [reflexivity|].
  destruct (g a); cbn [filter andb]; [destruct (f a)|]; rewrite IH; reflexivity.
Qed.

Lemma flat_map_map : forall (A B C : Type) (f : B -> list C) (g : A -> B) (l : list A),
  flat_map f (map g l) = flat_map (fun x => f (g x)) l.
Proof. intros A B C f g l. induction l as [|a l IH]; cbn [map flat_map]; [reflexivity|]. rewrite IH. reflexivity. Qed.

Lemma l2s_inj : forall a b : str, l2s a = l2s b -> a = b.
Proof.
  intros a b H.
  rewrite <- (list_ascii_of_string_of_list_ascii a), <- (list_ascii_of_string_of_list_ascii b).
  unfold l2s in H. rewrite H. reflexivity.
Qed.

Lemma str_eqb_spec : forall a b : str, reflect (a = b) (str_eqb a b).
Proof.
  intros a b. unfold str_eqb. destruct (String.eqb_spec (l2s a) (l2s b)) as [H|H]; constructor.
  - apply l2s_inj. exact H.
  - intros E. apply H. rewrite E. reflexivity.
Qed.

Lemma str_eqb_refl : forall a, str_eqb a a = true.
Proof. intros a. destruct (str_eqb_spec a a); congruence. Qed.

Lemma str_eqb_sym : forall a b, str_eqb a b = str_eqb b a.
Proof. intros a b. destruct (str_eqb_spec a b), (str_eqb_spec b a); congruence. Qed.

Lemma str_eqb_eq : forall a b, str_eqb a b = true <-> a = b.
Proof. intros a b. destruct (str_eqb_spec a b); split; congruence. Qed.

Lemma str_eqb_neq : forall a b, str_eqb a b = false <-> a <> b.
Proof. intros a b. destruct (str_eqb_spec a b); split; congruence. Qed.

Definition str_eq_dec : forall a b : str, {a = b} + {a <> b} := list_eq_dec ascii_dec.

Lemma mem_spec : forall n l, reflect (In n l) (existsb (str_eqb n) l).
Proof.
  intros n l. apply iff_reflect. rewrite existsb_exists. split.
  - intros H. exists n. split; [exact H|apply str_eqb_refl].
  - intros (x & Hx & E). apply str_eqb_eq in E. subst x. exact Hx.
Qed.

Lemma mem_In : forall n l, existsb (str_eqb n) l = true <-> In n l.
Proof. intros n l. destruct (mem_spec n l); split; congruence. Qed.

Lemma mem_not_In : forall n l, existsb (str_eqb n) l = false <-> ~ In n l.
Proof. intros n l. destruct (mem_spec n l); split; congruence. Qed.

Definition keys (d : list (str * str)) : list str := map fst d.

Lemma In_keys : forall k v (d : list (str * str)), In (k, v) d -> In k (keys d).
Proof. intros k v d H. exact (in_map fst d (k, v) H). Qed.

Lemma assoc_get_none : forall k d, assoc_get k d = None <-> ~ In k (keys d).
Proof.
  intros k d. induction d as [|[k' v] d IH]; cbn [assoc_get keys map fst In].
  - tauto.
  - destruct (str_eqb_spec k k') as [->|Hne].
    + split; [discriminate|]. intros H. exfalso. apply H. left. reflexivity.
    + rewrite IH. unfold keys. split.
      * intros H [E|E]; [congruence|tauto].
      * intros H E. apply H. right. exact E.
Qed.

Lemma assoc_get_some_In : forall k v d, assoc_get k d = Some v -> In (k, v) d.
Proof.
  intros k v d. induction d as [|[k' v'] d IH]; cbn [assoc_get In]; [discriminate|].
  destruct (str_eqb_spec k k') as [->|Hne].
  - intros H. injection H as ->. left. reflexivity.
  - intros H. right. apply IH. exact H.
Qed.

Lemma assoc_get_some_key : forall k v d, assoc_get k d = Some v -> In k (keys d).
Proof.
  intros k v d H. eapply In_keys, assoc_get_some_In, H.
Qed.

Lemma In_assoc_get_nodup : forall k v d, NoDup (keys d) -> In (k, v) d -> assoc_get k d = Some v.
Proof.
  intros k v d. induction d as [|[k' v'] d IH]; cbn [keys map fst assoc_get In]; [tauto|].
  intros Hnd [E|Hin].
  - injection E as -> ->. rewrite str_eqb_refl. reflexivity.
  - inversion Hnd as [|? ? Hnotin Hnd']; subst.
    destruct (str_eqb_spec k k') as [->|Hne].
    + exfalso. eapply Hnotin, In_keys, Hin.
    + apply IH; assumption.
Qed.

Lemma keys_assoc_del : forall k d, keys (assoc_del k d) = filter (fun k' => negb (str_eqb k k')) (keys d).
Proof.
  intros k d. unfold keys, assoc_del. induction d as [|[k' v] d IH]; cbn [filter map fst]; [reflexivity|].
  destruct (str_eqb k k'); cbn [negb map fst]; rewrite IH; reflexivity.
Qed.

Lemma In_keys_assoc_del : forall k k' d, In k' (keys (assoc_del k d)) <-> k' <> k /\ In k' (keys d).
Proof.
  intros k k' d. rewrite keys_assoc_del, filter_In.
  destruct (str_eqb_spec k k') as [->|Hne]; cbn [negb]; intuition congruence.
Qed.

Lemma assoc_del_nodup : forall k d, NoDup (keys d) -> NoDup (keys (assoc_del k d)).
Proof. intros k d H. rewrite keys_assoc_del. apply NoDup_filter. exact H. Qed.

Lemma assoc_get_del_other : forall k k' d, k <> k' -> assoc_get k (assoc_del k' d) = assoc_get k d.
Proof.
  intros k k' d Hne. unfold assoc_del. induction d as [|[k2 v] d IH]; cbn [filter assoc_get fst]; [reflexivity|].
  destruct (str_eqb_spec k' k2) as [->|Hne2]; cbn [negb].
  - destruct (str_eqb_spec k k2) as [->|_]; [congruence|exact IH].
  - cbn [assoc_get]. rewrite IH. reflexivity.
Qed.

Lemma assoc_get_del_same : forall k d, assoc_get k (assoc_del k d) = None.
Proof.
  intros k d. apply assoc_get_none. rewrite In_keys_assoc_del. intros [H _]. congruence.
Qed.

(* removing a key of a duplicate-free dictionary removes exactly ONE entry *)
Lemma assoc_del_perm : forall k v d, NoDup (keys d) -> assoc_get k d = Some v ->
  Permutation d ((k, v) :: assoc_del k d).
Proof.
  intros k v d. induction d as [|[k' v'] d IH]; cbn [assoc_get keys map fst]; [discriminate|].
  intros Hnd H. inversion Hnd as [|? ? Hnotin Hnd']; subst.
  unfold assoc_del. cbn [filter fst].
  destruct (str_eqb_spec k k') as [->|Hne]; cbn [negb].
  - injection H as ->. apply perm_skip.
    assert (E : filter (fun p => negb (str_eqb k' (fst p))) d = d).
    { apply filter_all_id. intros [k2 v2] Hin. cbn [fst].
      destruct (str_eqb_spec k' k2) as [->|_]; [|reflexivity].
      exfalso. eapply Hnotin, In_keys, Hin. }
    rewrite E. apply Permutation_refl.
  - eapply perm_trans; [apply perm_skip; apply (IH Hnd' H)|]. apply perm_swap.
Qed.

Lemma keys_assoc_set : forall k v d,
  keys (assoc_set k v d) = if existsb (str_eqb k) (keys d) then keys d else keys d ++ [k].
Proof.
  intros k v d. unfold keys. induction d as [|[k' v'] d IH]; cbn [assoc_set map fst existsb app]; [reflexivity|].
  destruct (str_eqb_spec k k') as [->|Hne]; cbn [orb map fst]; [reflexivity|].
  rewrite IH. destruct (existsb (str_eqb k) (map fst d)); reflexivity.
Qed.

Lemma assoc_set_nodup : forall k v d, NoDup (keys d) -> NoDup (keys (assoc_set k v d)).
Proof.
  intros k v d H. rewrite keys_assoc_set. destruct (mem_spec k (keys d)) as [Hin|Hnotin]; [exact H|].
  apply (Permutation_NoDup (Permutation_cons_append (keys d) k)). constructor; assumption.
Qed.

Lemma assoc_get_set_same : forall k v d, assoc_get k (assoc_set k v d) = Some v.
Proof.
  intros k v d. induction d as [|[k' v'] d IH]; cbn [assoc_set assoc_get].
  - rewrite str_eqb_refl. reflexivity.
  - destruct (str_eqb_spec k k') as [->|Hne]; cbn [assoc_get].
    + rewrite str_eqb_refl. reflexivity.
    + destruct (str_eqb_spec k k'); [congruence|exact IH].
Qed.

Lemma assoc_get_set_other : forall k k' v d, k' <> k -> assoc_get k' (assoc_set k v d) = assoc_get k' d.
Proof.
  intros k k' v d Hne. induction d as [|[k2 v2] d IH]; cbn [assoc_set assoc_get].
  - destruct (str_eqb_spec k' k); [congruence|reflexivity].
  - destruct (str_eqb_spec k k2) as [->|Hne2]; cbn [assoc_get].
    + destruct (str_eqb_spec k' k2); [congruence|reflexivity].
    + rewrite IH. reflexivity.
Qed.

Lemma In_assoc_set : forall k v d kv, In kv (assoc_set k v d) -> In kv d \/ kv = (k, v).
Proof.
  intros k v d kv. induction d as [|[k' v'] d IH]; cbn [assoc_set In].
  - intros [E|[]]. right. congruence.
  - destruct (str_eqb_spec k k') as [->|Hne]; cbn [In].
    + intros [E|H]; [right; congruence|left; right; exact H].
    + intros [E|H]; [left; left; exact E|]. destruct (IH H) as [H'|H']; [left; right; exact H'|right; exact H'].
Qed.

(* the step function that Pre.read_patches folds over the lines, under a name (read_patches_unfold
   holds by conversion) *)
Definition read_step (acc : option (list (str * str))) (line : str) : option (list (str * str)) :=
  match acc with
  | None => None
  | Some d => if found re_patch_macros_2 line then
                match define_name line with Some n => Some (assoc_set n line d) | None => None end
              else Some d
  end.

Lemma read_patches_unfold : forall content,
  read_patches content = fold_left read_step (split_lines (rsub re_patch_macros_0 [] content) []) (Some []).
Proof. reflexivity. Qed.

Lemma fold_read_step_inv : forall (P : list (str * str) -> Prop),
  (forall n line d, P d -> define_name line = Some n -> P (assoc_set n line d)) ->
  forall lines acc d, (forall d0, acc = Some d0 -> P d0) -> fold_left read_step lines acc = Some d -> P d.
Proof.
  intros P Hstep lines. induction lines as [|line lines IH]; intros acc d Hacc H; cbn [fold_left] in H.
  - apply Hacc. exact H.
  - apply (IH _ _) in H; [exact H|]. intros d0 E. destruct acc as [d1|]; cbn [read_step] in E; [|discriminate].
    destruct (found re_patch_macros_2 line).
    + destruct (define_name line) as [n|] eqn:En; [|discriminate]. injection E as <-.
      apply Hstep; [apply Hacc; reflexivity|exact En].
    + injection E as <-. apply Hacc. reflexivity.
Qed.

(* the keys of the dictionary read_patches builds are pairwise distinct, and every entry is a line
   together with ITS define_name *)
Theorem read_patches_nodup : forall content d, read_patches content = Some d -> NoDup (keys d).
Proof.
  intros content d H. rewrite read_patches_unfold in H.
  apply (fold_read_step_inv (fun d => NoDup (keys d))) in H; [exact H| |].
  - intros n line d0 Hd _. apply assoc_set_nodup. exact Hd.
  - intros d0 E. injection E as <-. constructor.
Qed.
Print Assumptions read_patches_nodup.

Theorem read_patches_names : forall content d, read_patches content = Some d ->
  forall k v, In (k, v) d -> define_name v = Some k.
Proof.
  intros content d H. rewrite read_patches_unfold in H.
  refine (fold_read_step_inv (fun d => forall k v, In (k, v) d -> define_name v = Some k) _ _ _ _ _ H).
  - intros n line d0 Hd En k v Hin. apply In_assoc_set in Hin. destruct Hin as [Hin|E].
    + apply Hd. exact Hin.
    + injection E as -> ->. exact En.
  - intros d0 E. injection E as <-. intros k v [].
Qed.
Print Assumptions read_patches_names.

Section Loop.
Variable nm : str -> option str.

Definition has_name (l : str) : bool := match nm l with Some _ => true | None => false end.
Definition has_patch (p : list (str * str)) (n : str) : bool :=
  match assoc_get n p with Some _ => true | None => false end.

(* the name k is the name of some line of m *)
Definition occurs (k : str) (m : list str) : bool :=
  existsb (fun l => match nm l with Some n => str_eqb n k | None => false end) m.

Lemma occurs_In : forall k m, occurs k m = true <-> In (Some k) (map nm m).
Proof.
  intros k m. unfold occurs. rewrite existsb_exists, in_map_iff. split.
  - intros (l & Hl & E). exists l. split; [|exact Hl].
    destruct (nm l) as [n|]; [|discriminate]. apply str_eqb_eq in E. congruence.
  - intros (l & E & Hl). exists l. split; [exact Hl|]. rewrite E. apply str_eqb_refl.
Qed.

Lemma occurs_cons : forall k l m,
  occurs k (l :: m) = (match nm l with Some n => str_eqb n k | None => false end) || occurs k m.
Proof. reflexivity. Qed.

Lemma occurs_app : forall k x y, occurs k (x ++ y) = occurs k x || occurs k y.
Proof. intros k x y. unfold occurs. apply existsb_app. Qed.

(* THE SPECIFICATION: one left-to-right pass with an explicit list of names already replaced;
   the dictionary is only read, never modified.  A line without a name is skipped here, while the
   loop fails on it: the two agree only under forallb has_name (patch_loop_total). *)
Fixpoint patch_spec (macros : list str) (patches : list (str * str)) (seen : list str) : list str :=
  match macros with
  | [] => []
  | l :: rest =>
      match nm l with
      | None => patch_spec rest patches seen
      | Some n =>
          if existsb (str_eqb n) seen then patch_spec rest patches seen        (* dropped *)
          else match assoc_get n patches with
               | Some p => p :: patch_spec rest patches (n :: seen)              (* replaced, once *)
               | None => l :: patch_spec rest patches seen                       (* kept *)
               end
      end
  end.

(* the patches left over: those whose key is the name of no line, or is in the initial `done` *)
Definition left_spec (macros : list str) (patches : list (str * str)) (done : list str) : list (str * str) :=
  filter (fun kv => negb (occurs (fst kv) macros) || existsb (str_eqb (fst kv)) done) patches.

(* patch_spec only looks at the bindings of names outside `seen` *)
Lemma patch_spec_ext : forall m p p' seen,
  (forall n, ~ In n seen -> assoc_get n p' = assoc_get n p) ->
  patch_spec m p' seen = patch_spec m p seen.
Proof.
  induction m as [|l m IH]; intros p p' seen H; cbn [patch_spec]; [reflexivity|].
  destruct (nm l) as [n|]; [|apply IH; exact H].
  destruct (mem_spec n seen) as [Hin|Hnotin]; [apply IH; exact H|].
  rewrite (H n Hnotin). destruct (assoc_get n p) as [v|].
  - f_equal. apply IH. intros n' Hn'. apply H. intros Hin. apply Hn'. right. exact Hin.
  - f_equal. apply IH. exact H.
Qed.

Lemma forallb_has_name_false : forall m, forallb has_name m = false <-> exists l, In l m /\ nm l = None.
Proof.
  induction m as [|a m IH]; cbn [forallb In].
  - split; [discriminate|]. intros (l & [] & _).
  - unfold has_name at 1. destruct (nm a) as [n|] eqn:En; cbn [andb].
    + rewrite IH. split.
      * intros (l & Hl & E). exists l. split; [right; exact Hl|exact E].
      * intros (l & [->|Hl] & E); [congruence|]. exists l. split; assumption.
    + split; [|reflexivity]. intros _. exists a. split; [left; reflexivity|exact En].
Qed.

(* positional reading of patch_spec: what line i contributes depends only on the line, on
   `done`, on the dictionary and on the names of the lines before it *)
Definition line_out (p : list (str * str)) (d : list str) (earlier : list str) (l : str) : list str :=
  match nm l with
  | None => []
  | Some n =>
      if existsb (str_eqb n) d then []                                  (* name in the initial done *)
      else match assoc_get n p with
           | Some v => if occurs n earlier then [] else [v]             (* patched: first occurrence only *)
           | None => [l]                                                (* unpatched: always kept *)
           end
  end.

(* an earlier line a matters to a later line only through the state in which a leaves the loop *)
Lemma line_out_cons : forall p d a e l,
  line_out p d (a :: e) l =
  match nm a with
  | Some n => if negb (existsb (str_eqb n) d) && has_patch p n then line_out p (n :: d) e l else line_out p d e l
  | None => line_out p d e l
  end.
Proof.
  intros p d a e l. unfold line_out.
  destruct (nm l) as [n'|]; [|destruct (nm a); [destruct (_ && _)|]; reflexivity].
  rewrite occurs_cons. destruct (nm a) as [n|]; [|reflexivity]. cbn [existsb]. rewrite (str_eqb_sym n' n). unfold has_patch.
  destruct (str_eqb_spec n n') as [<-|_]; cbn [orb]; [|destruct (_ && _); reflexivity].
  destruct (existsb (str_eqb n) d); [reflexivity|]. destruct (assoc_get n p); reflexivity.
Qed.

Theorem patch_spec_positional : forall m p d,
  patch_spec m p d =
  flat_map (fun i => match nth_error m i with Some l => line_out p d (firstn i m) l | None => [] end)
           (seq 0 (List.length m)).
Proof.
  induction m as [|a m IH]; intros p d; [reflexivity|].
  cbn [List.length seq flat_map nth_error firstn]. rewrite <- seq_shift, flat_map_map. cbn [nth_error firstn].
  assert (E : forall d', (forall e l, line_out p d' e l = line_out p d (a :: e) l) ->
    patch_spec m p d' =
    flat_map (fun x => match nth_error m x with Some l => line_out p d (a :: firstn x m) l | None => [] end)
             (seq 0 (List.length m))).
  { intros d' Hd'. rewrite IH. apply flat_map_ext. intros i. destruct (nth_error m i); [apply Hd'|reflexivity]. }
  cbn [patch_spec]. unfold line_out at 1. destruct (nm a) as [n|] eqn:En.
  2:{ apply E. intros e l. rewrite line_out_cons, En. reflexivity. }
  destruct (existsb (str_eqb n) d) eqn:Hd.
  - apply E. intros e l. rewrite line_out_cons, En, Hd. reflexivity.
  - destruct (assoc_get n p) as [v|] eqn:Eg; cbn [occurs existsb app]; f_equal; apply E; intros e l;
      rewrite line_out_cons, En, Hd; unfold has_patch; rewrite Eg; reflexivity.
Qed.

(* the loop of Pre.patch_loop with every output line tagged with where it came from (patch_loop_tloop:
   erasing the tags gives the loop back): the tags say which patches were consumed, which the plain
   output cannot *)
Inductive item := Kept (l : str) | Patched (k v : str).
Definition item_line (i : item) : str := match i with Kept l => l | Patched _ v => v end.
Definition used (items : list item) : list (str * str) :=
  flat_map (fun i => match i with Patched k v => [(k, v)] | Kept _ => [] end) items.
Definition kept (items : list item) : list str :=
  flat_map (fun i => match i with Kept l => [l] | Patched _ _ => [] end) items.

Fixpoint tloop (macros : list str) (patches : list (str * str)) (done : list str)
  : option (list item * list (str * str)) :=
  match macros with
  | [] => Some ([], patches)
  | mline :: rest =>
      match nm mline with
      | None => None
      | Some n =>
          if existsb (str_eqb n) done then tloop rest patches done
          else match assoc_get n patches with
               | Some p => match tloop rest (assoc_del n patches) (n :: done) with
                           | Some (r, ps) => Some (Patched n p :: r, ps) | None => None end
               | None => match tloop rest patches done with
                         | Some (r, ps) => Some (Kept mline :: r, ps) | None => None end
               end
      end
  end.

Lemma tloop_some_iff : forall m p d, (exists r, tloop m p d = Some r) <-> forallb has_name m = true.
Proof.
  induction m as [|l m IH]; intros p d; cbn [tloop forallb]; [split; eauto|].
  unfold has_name at 1. destruct (nm l) as [n|]; cbn [andb]; [|split; [intros (r & E); discriminate E|intros E; discriminate E]].
  destruct (existsb (str_eqb n) d); [apply IH|].
  destruct (assoc_get n p) as [v|]; [rewrite <- (IH (assoc_del n p) (n :: d))|rewrite <- (IH p d)].
  - destruct (tloop m (assoc_del n p) (n :: d)) as [[r ps]|]; [split; intros _; eexists; reflexivity|tauto].
  - destruct (tloop m p d) as [[r ps]|]; [split; intros _; eexists; reflexivity|tauto].
Qed.

(* everything about a successful tagged run, by ONE induction along the loop: which keys are
   consumed; none twice; what is consumed is a binding of the dictionary; with pairwise distinct
   keys, consumed ++ left-over is a rearrangement of the dictionary; the unpatched definitions are
   preserved, in their original order, with their multiplicity *)
Theorem tloop_inv : forall m p d items lft, tloop m p d = Some (items, lft) ->
  (forall k, In k (keys (used items)) <-> ~ In k d /\ In k (keys p) /\ In (Some k) (map nm m)) /\
  NoDup (keys (used items)) /\
  (forall k v, In (k, v) (used items) -> assoc_get k p = Some v) /\
  (NoDup (keys p) -> Permutation p (used items ++ lft)) /\
  kept items = filter (fun l => match nm l with
                                | Some n => negb (existsb (str_eqb n) d) && negb (has_patch p n)
                                | None => false end) m.
Proof.
  induction m as [|l m IH]; intros p d items lft H; cbn [tloop] in H.
  - injection H as <- <-. cbn. repeat split; try tauto; [constructor|intros; apply Permutation_refl].
  - cbn [map In filter]. destruct (nm l) as [n|] eqn:En; [|discriminate].
    destruct (mem_spec n d) as [Hin|Hnotin]; cbn [negb andb].
    + (* the name is done: the line is dropped *)
      destruct (IH _ _ _ _ H) as (I1 & I2 & I3 & I4 & I5). split; [|split; [|split; [|split]]]; try assumption.
      intros k. rewrite I1. split; [tauto|]. intros (H1 & H2 & [E|H3]); [injection E as ->|]; tauto.
    + unfold has_patch at 1. destruct (assoc_get n p) as [v|] eqn:Eg; cbn [negb].
      * (* patched: n is consumed here and, being done from now on, nowhere later *)
        destruct (tloop m (assoc_del n p) (n :: d)) as [[r ps]|] eqn:Et; [|discriminate]. injection H as <- <-.
        destruct (IH _ _ _ _ Et) as (I1 & I2 & I3 & I4 & I5).
        change (used (Patched n v :: r)) with ((n, v) :: used r). change (kept (Patched n v :: r)) with (kept r).
        change (keys ((n, v) :: used r)) with (n :: keys (used r)).
        split; [|split; [|split; [|split]]].
        -- intros k. cbn [In]. rewrite I1, In_keys_assoc_del. cbn [In]. apply assoc_get_some_key in Eg.
           destruct (str_eq_dec n k) as [<-|Hne]; [tauto|]. intuition congruence.
        -- constructor; [|exact I2]. intros Hk. apply I1 in Hk. apply Hk. left. reflexivity.
        -- intros k w [E|Hk]; [injection E as <- <-; exact Eg|]. apply I3 in Hk.
           destruct (str_eq_dec k n) as [->|Hne]; [rewrite assoc_get_del_same in Hk; discriminate|].
           rewrite assoc_get_del_other in Hk by exact Hne. exact Hk.
        -- intros Hnd. eapply perm_trans; [apply assoc_del_perm; eassumption|]. apply perm_skip.
           apply I4, assoc_del_nodup, Hnd.
        -- rewrite I5. apply filter_ext. intros l'. destruct (nm l') as [n'|]; [|reflexivity]. cbn [existsb].
           rewrite (str_eqb_sym n' n). unfold has_patch.
           destruct (str_eqb_spec n n') as [<-|Hne]; cbn [orb negb andb].
           ++ apply mem_not_In in Hnotin. rewrite Eg, Hnotin. reflexivity.
           ++ rewrite assoc_get_del_other by congruence. reflexivity.
      * (* no patch: the line is kept *)
        destruct (tloop m p d) as [[r ps]|] eqn:Et; [|discriminate]. injection H as <- <-.
        destruct (IH _ _ _ _ Et) as (I1 & I2 & I3 & I4 & I5).
        change (used (Kept l :: r)) with (used r). change (kept (Kept l :: r)) with (l :: kept r).
        split; [|split; [|split; [|split]]]; try assumption; [|rewrite I5; reflexivity].
        intros k. rewrite I1. apply assoc_get_none in Eg.
        split; [tauto|]. intros (H1 & H2 & [E|H3]); [injection E as ->|]; tauto.
Qed.

Theorem used_left_perm : forall m p d items lft, NoDup (keys p) -> tloop m p d = Some (items, lft) ->
  Permutation p (used items ++ lft).
Proof. intros m p d items lft Hnd H. apply (tloop_inv _ _ _ _ _ H). exact Hnd. Qed.

Theorem used_count : forall m p d items lft, tloop m p d = Some (items, lft) ->
  forall k, count_occ str_eq_dec (keys (used items)) k <= 1 /\
            (count_occ str_eq_dec (keys (used items)) k = 1 <->
             ~ In k d /\ In k (keys p) /\ In (Some k) (map nm m)).
Proof.
  intros m p d items lft H k.
  destruct (tloop_inv _ _ _ _ _ H) as (Hin & Hnd & _). specialize (Hin k).
  rewrite (NoDup_count_occ str_eq_dec) in Hnd. specialize (Hnd k).
  rewrite (count_occ_In str_eq_dec) in Hin. split; [exact Hnd|].
  rewrite <- Hin. lia.
Qed.

Theorem kept_filter : forall m p d items lft, tloop m p d = Some (items, lft) ->
  kept items = filter (fun l => match nm l with
                                | Some n => negb (existsb (str_eqb n) d) && negb (has_patch p n)
                                | None => false end) m.
Proof. intros m p d items lft H. apply (tloop_inv _ _ _ _ _ H). Qed.

End Loop.
Print Assumptions patch_spec_positional.
Print Assumptions used_left_perm.
Print Assumptions used_count.
Print Assumptions kept_filter.

(* TOTAL characterisation of the loop: when it fails, its output list and the left-over patches *)
Theorem patch_loop_total : forall macros patches done,
  patch_loop macros patches done =
  if forallb (has_name define_name) macros
  then Some (patch_spec define_name macros patches done, left_spec define_name macros patches done)
  else None.
Proof.
  induction macros as [|l m IH]; intros p d.
  - cbn [patch_loop forallb patch_spec]. unfold left_spec. f_equal. f_equal. symmetry.
    apply filter_all_id. intros kv _. reflexivity.
  - cbn [patch_loop forallb patch_spec]. unfold has_name at 1. destruct (define_name l) as [n|] eqn:En; cbn [andb]; [|reflexivity].
    destruct (mem_spec n d) as [Hin|Hnotin].
    + rewrite IH. destruct (forallb (has_name define_name) m); [|reflexivity]. f_equal. f_equal.
      unfold left_spec. apply filter_ext. intros [k v]. cbn [fst]. rewrite occurs_cons, En.
      destruct (str_eqb_spec n k) as [->|_]; cbn [orb]; [|reflexivity].
      apply mem_In in Hin. rewrite Hin, !orb_true_r. reflexivity.
    + destruct (assoc_get n p) as [v|] eqn:Eg.
      * rewrite IH. destruct (forallb (has_name define_name) m); [|reflexivity]. f_equal. f_equal.
        -- f_equal. apply patch_spec_ext. intros n' Hn'. apply assoc_get_del_other.
           intros ->. apply Hn'. left. reflexivity.
        -- unfold left_spec, assoc_del. rewrite filter_filter. apply filter_ext. intros [k w]. cbn [fst existsb].
           rewrite occurs_cons, En. rewrite (str_eqb_sym k n).
           destruct (str_eqb_spec n k) as [<-|_]; cbn [negb andb orb]; [|reflexivity].
           apply mem_not_In in Hnotin. rewrite Hnotin. reflexivity.
      * rewrite IH. destruct (forallb (has_name define_name) m); [|reflexivity]. f_equal. f_equal.
        unfold left_spec. apply filter_ext_in. intros [k w] Hkw. cbn [fst]. rewrite occurs_cons, En.
        destruct (str_eqb_spec n k) as [<-|_]; cbn [orb]; [|reflexivity].
        exfalso. apply assoc_get_none in Eg. eapply Eg, In_keys, Hkw.
Qed.

(* erasing the tags gives back the loop *)
Lemma patch_loop_tloop : forall m p d,
  patch_loop m p d = match tloop define_name m p d with Some (items, lft) => Some (map item_line items, lft) | None => None end.
Proof.
  induction m as [|l m IH]; intros p d; cbn [patch_loop tloop]; [reflexivity|].
  destruct (define_name l) as [n|]; [|reflexivity].
  destruct (existsb (str_eqb n) d); [apply IH|].
  destruct (assoc_get n p) as [v|]; rewrite IH.
  - destruct (tloop define_name m (assoc_del n p) (n :: d)) as [[r ps]|]; reflexivity.
  - destruct (tloop define_name m p d) as [[r ps]|]; reflexivity.
Qed.
Print Assumptions patch_loop_total.

Theorem patch_loop_none_iff : forall macros patches done,
  patch_loop macros patches done = None <-> exists l, In l macros /\ define_name l = None.
Proof.
  intros. rewrite patch_loop_total, <- forallb_has_name_false.
  destruct (forallb (has_name define_name) macros); split; congruence.
Qed.
Print Assumptions patch_loop_none_iff.

Theorem patch_loop_spec : forall macros patches done out lft,
  patch_loop macros patches done = Some (out, lft) ->
  out = patch_spec define_name macros patches done.
Proof.
  intros macros patches done out lft H. rewrite patch_loop_total in H.
  destruct (forallb (has_name define_name) macros); congruence.
Qed.
Print Assumptions patch_loop_spec.

Theorem patch_loop_positional : forall macros patches done out lft,
  patch_loop macros patches done = Some (out, lft) ->
  out = flat_map (fun i => match nth_error macros i with
                           | Some l => line_out define_name patches done (firstn i macros) l
                           | None => [] end) (seq 0 (List.length macros)).
Proof.
  intros macros patches done out lft H. rewrite (patch_loop_spec _ _ _ _ _ H). apply patch_spec_positional.
Qed.
Print Assumptions patch_loop_positional.

Theorem patch_loop_left : forall macros patches done out lft,
  patch_loop macros patches done = Some (out, lft) ->
  lft = filter (fun kv => negb (occurs define_name (fst kv) macros) || existsb (str_eqb (fst kv)) done) patches.
Proof.
  intros macros patches done out lft H. rewrite patch_loop_total in H.
  destruct (forallb (has_name define_name) macros); [injection H as _ <-; reflexivity|discriminate].
Qed.
Print Assumptions patch_loop_left.

Corollary patch_loop_left_nil : forall macros patches out lft,
  patch_loop macros patches [] = Some (out, lft) ->
  lft = filter (fun kv => negb (occurs define_name (fst kv) macros)) patches.
Proof.
  intros macros patches out lft H. rewrite (patch_loop_left _ _ _ _ _ H).
  apply filter_ext. intros kv. cbn [existsb]. apply orb_false_r.
Qed.

(* a left-over patch is a patch whose key names no line, in dictionary order; stated with In *)
Corollary patch_loop_left_In : forall macros patches out lft,
  patch_loop macros patches [] = Some (out, lft) ->
  forall k v, In (k, v) lft <-> In (k, v) patches /\ ~ In (Some k) (map define_name macros).
Proof.
  intros macros patches out lft H k v. rewrite (patch_loop_left_nil _ _ _ _ H), filter_In. cbn [fst].
  rewrite <- occurs_In. destruct (occurs define_name k macros); cbn [negb]; intuition congruence.
Qed.
Print Assumptions patch_loop_left_In.

(* the output of Pre.patch_loop is the erasure of a tagged run with the properties of tloop_inv *)
Theorem patch_loop_used : forall macros patches done out lft,
  patch_loop macros patches done = Some (out, lft) ->
  exists items,
    tloop define_name macros patches done = Some (items, lft) /\
    out = map item_line items /\
    (* each key is consumed at most once; exactly once iff it names a line (and is not in done) *)
    (forall k, count_occ str_eq_dec (keys (used items)) k <= 1 /\
               (count_occ str_eq_dec (keys (used items)) k = 1 <->
                ~ In k done /\ In k (keys patches) /\ In (Some k) (map define_name macros))) /\
    (* what is consumed is a binding of the dictionary *)
    (forall k v, In (k, v) (used items) -> assoc_get k patches = Some v) /\
    (* consumed and left-over together are the dictionary, when its keys are pairwise distinct *)
    (NoDup (keys patches) -> Permutation patches (used items ++ lft)) /\
    (* the lines that are not patch lines are the unpatched lines, in order *)
    kept items = filter (fun l => match define_name l with
                                  | Some n => negb (existsb (str_eqb n) done) && negb (has_patch patches n)
                                  | None => false end) macros.
Proof.
  intros macros patches done out lft H. rewrite patch_loop_tloop in H.
  destruct (tloop define_name macros patches done) as [[items lft']|] eqn:Et; [|discriminate].
  injection H as <- <-. exists items. split; [reflexivity|]. split; [reflexivity|].
  split; [intros k; eapply used_count; exact Et|]. apply (tloop_inv _ _ _ _ _ _ Et).
Qed.
Print Assumptions patch_loop_used.

(* the macro names need not be pairwise distinct (patch_loop_keeps_duplicates below) *)
Theorem patch_loop_unpatched : forall macros patches,
  (forall l, In l macros -> exists n, define_name l = Some n /\ ~ In n (keys patches)) ->
  patch_loop macros patches [] = Some (macros, patches).
Proof.
  induction macros as [|l m IH]; intros p H; cbn [patch_loop]; [reflexivity|].
  destruct (H l (or_introl eq_refl)) as (n & En & Hp). rewrite En. cbn [existsb].
  apply assoc_get_none in Hp. rewrite Hp.
  rewrite IH; [reflexivity|]. intros l' Hl'. apply H. right. exact Hl'.
Qed.
Print Assumptions patch_loop_unpatched.

(* the same with the names given as a list; `NoDup names` plays no role *)
Corollary patch_loop_unpatched_as_tasked : forall macros names patches,
  map define_name macros = map Some names -> NoDup names ->
  (forall n, In n names -> ~ In n (keys patches)) ->
  patch_loop macros patches [] = Some (macros, patches).
Proof.
  intros macros names patches Hmap _ Hdisj. apply patch_loop_unpatched. intros l Hl.
  assert (Hin : In (define_name l) (map Some names)) by (rewrite <- Hmap; apply in_map; exact Hl).
  apply in_map_iff in Hin. destruct Hin as (n & E & Hn). exists n. split; [congruence|apply Hdisj; exact Hn].
Qed.

(* patch_macros: total characterisation *)
Theorem patch_macros_spec : forall macros content,
  patch_macros macros content =
  match read_patches content with
  | None => None
  | Some p =>
      if forallb (has_name define_name) macros
      then Some (rev (map snd (filter (fun kv => negb (occurs define_name (fst kv) macros)) p))
                 ++ patch_spec define_name macros p [])
      else None
  end.
Proof.
  intros macros content. unfold patch_macros. destruct (read_patches content) as [p|]; [|reflexivity].
  rewrite patch_loop_total. destruct (forallb (has_name define_name) macros); [|reflexivity].
  unfold left_spec. do 4 f_equal. apply filter_ext. intros kv. cbn [existsb]. apply orb_false_r.
Qed.
Print Assumptions patch_macros_spec.

(* the C20 summary for patch_macros: the keys of the dictionary ARE pairwise distinct *)
Theorem patch_macros_C20 : forall macros content res,
  patch_macros macros content = Some res ->
  exists p items lft,
    read_patches content = Some p /\ NoDup (keys p) /\
    tloop define_name macros p [] = Some (items, lft) /\
    res = rev (map snd lft) ++ map item_line items /\
    Permutation p (used items ++ lft) /\
    NoDup (keys (used items)) /\
    (forall k, In k (keys (used items)) <-> In k (keys p) /\ In (Some k) (map define_name macros)) /\
    (forall k v, In (k, v) (used items) -> assoc_get k p = Some v) /\
    lft = filter (fun kv => negb (occurs define_name (fst kv) macros)) p /\
    kept items = filter (fun l => match define_name l with
                                  | Some n => negb (has_patch p n) | None => false end) macros.
Proof.
  intros macros content res H. unfold patch_macros in H.
  destruct (read_patches content) as [p|] eqn:Er; [|discriminate].
  destruct (patch_loop macros p []) as [[out lft]|] eqn:El; [|discriminate]. injection H as <-.
  pose proof (read_patches_nodup _ _ Er) as Hnd.
  pose proof (patch_loop_left_nil _ _ _ _ El) as Hl.
  rewrite patch_loop_tloop in El.
  destruct (tloop define_name macros p []) as [[items lft']|] eqn:Et; [|discriminate].
  injection El as <- <-. exists p, items, lft'.
  destruct (tloop_inv _ _ _ _ _ _ Et) as (I1 & I2 & I3 & I4 & I5).
  split; [reflexivity|]. split; [exact Hnd|]. split; [exact Et|]. split; [reflexivity|].
  split; [exact (I4 Hnd)|]. split; [exact I2|].
  split; [intros k; rewrite (I1 k); cbn [In]; tauto|].
  split; [exact I3|]. split; [exact Hl|].
  rewrite I5. apply filter_ext. intros l. destruct (define_name l); reflexivity.
Qed.
Print Assumptions patch_macros_C20.

(* The reading "EVERY line whose name was already seen is dropped" is FALSE of the model: `done`
   is only extended when a patch is applied, so a repeated UNPATCHED definition is kept every
   time.  patch_spec_dedup is that (refuted) reading. *)
Fixpoint patch_spec_dedup (nm : str -> option str) (macros : list str) (patches : list (str * str))
  (seen : list str) : list str :=
  match macros with
  | [] => []
  | l :: rest =>
      match nm l with
      | None => patch_spec_dedup nm rest patches seen
      | Some n =>
          if existsb (str_eqb n) seen then patch_spec_dedup nm rest patches seen
          else (match assoc_get n patches with Some v => v | None => l end)
               :: patch_spec_dedup nm rest patches (n :: seen)
      end
  end.

Example patch_loop_dedup_refuted :
  let m := [s2l "#define A 1"; s2l "#define A 2"] in
  patch_loop m [] [] = Some (m, []) /\ patch_spec_dedup define_name m [] [] = [s2l "#define A 1"].
Proof. vm_compute. split; reflexivity. Qed.

(* patch_loop_unpatched on macros with a repeated name *)
Example patch_loop_keeps_duplicates :
  patch_loop [s2l "#define A 1"; s2l "#define A 2"] [(s2l "B", s2l "#define B 0")] []
  = Some ([s2l "#define A 1"; s2l "#define A 2"], [(s2l "B", s2l "#define B 0")]).
Proof.
  apply patch_loop_unpatched. intros l [<-|[<-|[]]]; exists (s2l "A"); (split; [vm_compute; reflexivity|]);
    intros [E|[]]; discriminate.
Qed.

(* a name in the initial `done` is dropped and its patch is LEFT OVER (not consumed) *)
Example patch_loop_done_drops :
  patch_loop [s2l "#define A 1"] [(s2l "A", s2l "#define A 9")] [s2l "A"]
  = Some ([], [(s2l "A", s2l "#define A 9")]).
Proof. vm_compute. reflexivity. Qed.

(* with a hand-made dictionary whose keys are NOT distinct, a patch is lost: neither consumed nor left *)
Example dup_keys_lose_a_patch :
  patch_loop [s2l "#define A 1"] [(s2l "A", s2l "#define A 8"); (s2l "A", s2l "#define A 9")] []
  = Some ([s2l "#define A 8"], []).
Proof. vm_compute. reflexivity. Qed.

Definition nls : string := String "010" EmptyString.
Definition ex_macros : list str :=
  [s2l "#define fA(x) ((x) + 1)"; s2l "#define fB 2"; s2l "#define fA(x) ((x) + 3)";
   s2l "#define fC 4"; s2l "#define fB 5"].
(* a comment line, a patch for fA written with a line continuation, a patch for fZ that matches nothing *)
Definition ex_content : str :=
  s2l ("// patches" ++ nls ++ "#define fA(x) \" ++ nls ++ "   PATCHED_A(x)" ++ nls ++ "#define fZ unused" ++ nls)%string.
Definition ex_patches : list (str * str) :=
  [(s2l "fA", s2l "#define fA(x)    PATCHED_A(x)"); (s2l "fZ", s2l "#define fZ unused")].

Example ex_read : read_patches ex_content = Some ex_patches.
Proof. vm_compute. reflexivity. Qed.

Example ex_patch_macros :
  patch_macros ex_macros ex_content
  = Some [s2l "#define fZ unused"; s2l "#define fA(x)    PATCHED_A(x)"; s2l "#define fB 2";
          s2l "#define fC 4"; s2l "#define fB 5"].
Proof. vm_compute. reflexivity. Qed.

Example ex_tloop :
  tloop define_name ex_macros ex_patches []
  = Some ([Patched (s2l "fA") (s2l "#define fA(x)    PATCHED_A(x)"); Kept (s2l "#define fB 2");
           Kept (s2l "#define fC 4"); Kept (s2l "#define fB 5")],
          [(s2l "fZ", s2l "#define fZ unused")]).
Proof. vm_compute. reflexivity. Qed.

(* a line that begins with "#define" but has no white space after it makes read_patches raise *)
Example read_patches_raises : read_patches (s2l "#defineX 1") = None.
Proof. vm_compute. reflexivity. Qed.

(* used_left_perm and used_count on this instance *)
Example ex_keys_distinct : NoDup (keys ex_patches).
Proof. exact (read_patches_nodup _ _ ex_read). Qed.

Example ex_perm :
  Permutation ex_patches ([(s2l "fA", s2l "#define fA(x)    PATCHED_A(x)")] ++ [(s2l "fZ", s2l "#define fZ unused")]).
Proof. exact (used_left_perm define_name _ _ _ _ _ ex_keys_distinct ex_tloop). Qed.

Example ex_count_fA :
  count_occ str_eq_dec (keys (used [Patched (s2l "fA") (s2l "#define fA(x)    PATCHED_A(x)"); Kept (s2l "#define fB 2");
           Kept (s2l "#define fC 4"); Kept (s2l "#define fB 5")])) (s2l "fA") = 1.
Proof.
  apply (proj2 (used_count define_name _ _ _ _ _ ex_tloop (s2l "fA"))).
  split; [intros []|]. split; [left; reflexivity|]. vm_compute. left. reflexivity.
Qed.

Example ex_count_fZ :
  count_occ str_eq_dec (keys (used [Patched (s2l "fA") (s2l "#define fA(x)    PATCHED_A(x)"); Kept (s2l "#define fB 2");
           Kept (s2l "#define fC 4"); Kept (s2l "#define fB 5")])) (s2l "fZ") = 0.
Proof.
  pose proof (used_count define_name _ _ _ _ _ ex_tloop (s2l "fZ")) as [Hle Hiff].
  destruct (count_occ str_eq_dec _ (s2l "fZ")) as [|[|c]] eqn:E; [reflexivity| |lia].
  exfalso. destruct (proj1 Hiff eq_refl) as (_ & _ & Hin). vm_compute in Hin.
  repeat (destruct Hin as [Hin|Hin]; [discriminate|]). exact Hin.
Qed.
Print Assumptions ex_perm.
Print Assumptions ex_count_fA.
Print Assumptions ex_count_fZ.

(* the longest prefix of p-characters; Pre.strip_left drops it *)
Fixpoint take_while (p : ascii -> bool) (s : str) : str :=
  match s with c :: t => if p c then c :: take_while p t else [] | [] => [] end.

Lemma take_strip : forall p s, s = take_while p s ++ strip_left p s.
Proof.
  intros p s. induction s as [|c s IH]; cbn [take_while strip_left]; [reflexivity|].
  destruct (p c); cbn [app]; [f_equal; exact IH|reflexivity].
Qed.

Lemma take_while_ptrue : forall p s, ptrue p (take_while p s).
Proof.
  intros p s. induction s as [|c s IH]; cbn [take_while]; [constructor|].
  destruct (p c) eqn:E; constructor; assumption.
Qed.

Lemma strip_left_stops : forall p s, stops p (strip_left p s).
Proof.
  intros p s. induction s as [|c s IH]; cbn [strip_left]; [exact I|].
  destruct (p c) eqn:E; [exact IH|exact E].
Qed.

Lemma strip_left_app_stops : forall p xs y, ptrue p xs -> stops p y -> strip_left p (xs ++ y) = y.
Proof.
  intros p xs y Hx Hy. induction Hx as [|a xs Ha Hx IH]; cbn [app strip_left].
  - destruct y as [|a t]; [reflexivity|]. cbn in Hy. cbn [strip_left]. rewrite Hy. reflexivity.
  - rewrite Ha. exact IH.
Qed.

Lemma take_while_app_stops : forall p xs y, ptrue p xs -> stops p y -> take_while p (xs ++ y) = xs.
Proof.
  intros p xs y Hx Hy. pose proof (take_strip p (xs ++ y)) as E.
  rewrite strip_left_app_stops in E by assumption. apply app_inv_tail in E. symmetry. exact E.
Qed.

Lemma take_while_ext : forall p q s, (forall c, p c = q c) -> take_while p s = take_while q s.
Proof.
  intros p q s H. induction s as [|c s IH]; cbn [take_while]; [reflexivity|]. rewrite H, IH. reflexivity.
Qed.

Lemma strip_left_ext : forall p q s, (forall c, p c = q c) -> strip_left p s = strip_left q s.
Proof.
  intros p q s H. induction s as [|c s IH]; cbn [strip_left]; [reflexivity|]. rewrite H, IH. reflexivity.
Qed.

Lemma firstn_take_while : forall p s, firstn (List.length s - List.length (strip_left p s)) s = take_while p s.
Proof.
  intros p s. rewrite (take_strip p s) at 1 3. apply firstn_len_app.
Qed.

(* the greedy star succeeds at once when the continuation accepts what is left after the maximal block *)
Lemma star_g_max : forall p s k r, k (strip_left p s) = Some r -> star_g p s k = Some r.
Proof.
  intros p s k r H. rewrite (take_strip p s).
  apply star_g_all; [apply take_while_ptrue|apply strip_left_stops|exact H].
Qed.

(* a regex anchored with ^ can only match at position 0 *)
Lemma search_from_bol_none : forall w x s n, List.length s < List.length w ->
  search_from w (RCat RBol x) s n = None.
Proof.
  intros w x s. induction s as [|c s IH]; intros n H; cbn [search_from m].
  - replace (Nat.eqb (List.length (@nil ascii)) (List.length w)) with false; [reflexivity|].
    symmetry. apply Nat.eqb_neq. lia.
  - replace (Nat.eqb (List.length (c :: s)) (List.length w)) with false.
    + apply IH. cbn [List.length] in H. lia.
    + symmetry. apply Nat.eqb_neq. lia.
Qed.

Lemma rsearch_bol : forall x line,
  rsearch (RCat RBol x) line =
  match m line x line [] (k_end line) with Some cs => Some (0%nat, cs) | None => None end.
Proof.
  intros x line. unfold rsearch. destruct line as [|c t]; cbn [search_from m]; rewrite Nat.eqb_refl.
  - destruct (m [] x [] [] _); reflexivity.
  - destruct (m (c :: t) x (c :: t) [] _); [reflexivity|].
    apply search_from_bol_none. cbn [List.length]. lia.
Qed.

Definition wordset : cclass := CSet ["_"] [] [CWord] false.
Lemma wordset_is_word : forall c, cmatch wordset c = is_word c.
Proof.
  (* "_" is itself a word character, so listing it adds nothing *)
  intros c. cbn [wordset cmatch existsb]. rewrite xorb_false_l, !orb_false_r.
  destruct (Ascii.eqb_spec c "_") as [->|_]; reflexivity.
Qed.

Lemma re_patch_macros_1_eq :
  re_patch_macros_1 =
  RCat RBol (RCat (RLit (s2l "#define")) (RCat (RPlus true CSpace)
       (RCat (RGrp 1 (RStar true wordset)) (RStar true CAny)))).
Proof. reflexivity. Qed.

(* the first-order reading: "#define", at least one white-space character, then the name is the
   longest run of word characters after ALL the white space (it may be empty) *)
Definition define_name_fn (line : str) : option str :=
  match prefix_lit (s2l "#define") line with
  | Some (c :: r) => if is_space c then Some (take_while is_word (strip_left is_space r)) else None
  | _ => None
  end.

Theorem define_name_eq : forall line, define_name line = define_name_fn line.
Proof.
  intros line. unfold define_name, define_name_fn. rewrite re_patch_macros_1_eq, rsearch_bol.
  rewrite m_cat. destruct (prefix_lit (s2l "#define") line) as [r|] eqn:E.
  2:{ cbn [m]. rewrite E. reflexivity. }
  apply prefix_lit_inv in E. subst line. rewrite m_lit_app, m_cat.
  destruct r as [|c r]; [reflexivity|].
  destruct (is_space c) eqn:Hc.
  2:{ cbn [m cmatch]. rewrite Hc. reflexivity. }
  rewrite m_plus_g by exact Hc.
  erewrite star_g_max.
  2:{ rewrite m_cat, m_grp, m_star_g. apply star_g_max. rewrite m_star_g. apply star_g_max. reflexivity. }
  cbn [group Nat.eqb]. f_equal.
  change (cmatch CSpace) with is_space. rewrite firstn_take_while.
  rewrite (take_while_ext _ _ _ wordset_is_word). reflexivity.
Qed.
Print Assumptions define_name_eq.

Corollary define_name_some_iff : forall line n,
  define_name line = Some n <->
  exists c r, line = s2l "#define" ++ c :: r /\ is_space c = true /\ n = take_while is_word (strip_left is_space r).
Proof.
  intros line n. rewrite define_name_eq. unfold define_name_fn.
  destruct (prefix_lit (s2l "#define") line) as [r|] eqn:E.
  - apply prefix_lit_inv in E. subst line. destruct r as [|c r].
    + split; [discriminate|]. intros (c & r & H & _). apply app_inv_head in H. discriminate.
    + destruct (is_space c) eqn:Hc.
      * split.
        -- intros H. injection H as <-. exists c, r. auto.
        -- intros (c' & r' & H & _ & ->). apply app_inv_head in H. injection H as <- <-. reflexivity.
      * split; [discriminate|]. intros (c' & r' & H & Hc' & _). apply app_inv_head in H. congruence.
  - split; [discriminate|]. intros (c & r & -> & _). rewrite prefix_lit_app in E. discriminate.
Qed.

Corollary define_name_none_iff : forall line,
  define_name line = None <-> ~ exists c r, line = s2l "#define" ++ c :: r /\ is_space c = true.
Proof.
  intros line. destruct (define_name line) as [n|] eqn:E.
  - apply define_name_some_iff in E. destruct E as (c & r & Hl & Hc & _).
    split; [discriminate|]. intros H. exfalso. apply H. eauto.
  - split; [|reflexivity]. intros _ (c & r & Hl & Hc).
    assert (E' : define_name line = Some (take_while is_word (strip_left is_space r)))
      by (apply define_name_some_iff; eauto).
    congruence.
Qed.

(* shape form: name delimited by a non-word character *)
Corollary define_name_shape : forall sp n rest,
  sp <> [] -> ptrue is_space sp -> ptrue is_word n -> stops is_space (n ++ rest) -> stops is_word rest ->
  define_name (s2l "#define" ++ sp ++ n ++ rest) = Some n.
Proof.
  intros sp n rest Hne Hsp Hn Hs1 Hs2. apply define_name_some_iff.
  destruct sp as [|c sp]; [congruence|]. inversion Hsp as [|? ? Hc Hsp']; subst.
  exists c, (sp ++ n ++ rest). split; [reflexivity|]. split; [exact Hc|].
  rewrite strip_left_app_stops, take_while_app_stops by assumption. reflexivity.
Qed.
Print Assumptions define_name_shape.

(* concretely: the loop raises iff some line does not begin with "#define" + white space *)
Theorem patch_loop_fails_iff : forall macros patches done,
  patch_loop macros patches done = None <->
  exists l, In l macros /\ ~ exists c r, l = s2l "#define" ++ c :: r /\ is_space c = true.
Proof.
  intros macros patches done. rewrite patch_loop_none_iff.
  split; intros (l & Hl & E); exists l; (split; [exact Hl|]); apply define_name_none_iff; exact E.
Qed.
Print Assumptions patch_loop_fails_iff.

(* the name can be EMPTY, and the white space before it may contain a newline *)
Example define_name_empty : define_name (s2l "#define (x) x") = Some [].
Proof. vm_compute. reflexivity. Qed.
Example define_name_newline : define_name (s2l "#define " ++ nl :: s2l "foo 1") = Some (s2l "foo").
Proof. vm_compute. reflexivity. Qed.
Example define_name_indented : define_name (s2l " #define foo 1") = None.
Proof. vm_compute. reflexivity. Qed.

(* re_replace_do_while_0_0 cut at the three places the proofs stop at: after group 1, before the
   closing brace, and before its last two factors *)
Definition dw_tail : re := RCat (RLit (s2l "(0)")) (RGrp 3 (RStar true CAny)).
Definition dw_K2 : re :=
  RCat (RLit (s2l "}")) (RCat (RStar true CSpace) (RCat (RLit (s2l "while")) (RCat (RStar true CSpace) dw_tail))).
Definition dw_K : re :=
  RCat (RLit (s2l "do")) (RCat (RStar true CSpace) (RCat (RLit (s2l "{")) (RCat (RGrp 2 (RStar true CAny)) dw_K2))).
Lemma re_dw_eq : re_replace_do_while_0_0 = RCat (RGrp 1 (RStar true CAny)) dw_K.
Proof. reflexivity. Qed.

(* the text  do S1 { B } S2 while S3 (0) POST  *)
Definition wrapped (s1 b s2 s3 post : str) : str :=
  s2l "do" ++ s1 ++ s2l "{" ++ b ++ s2l "}" ++ s2 ++ s2l "while" ++ s3 ++ s2l "(0)" ++ post.

Definition spaces (s : str) : Prop := ptrue is_space s.

(* inversion of the part from the closing brace on, and of the part after the first group *)
Lemma m_dw_K2_inv : forall w k0 v cs x, m w dw_K2 v cs k0 = Some x ->
  exists s2 s3 c rest, v = s2l "}" ++ s2 ++ s2l "while" ++ s3 ++ s2l "(0)" ++ c ++ rest /\
    spaces s2 /\ spaces s3 /\ nonl c /\ k0 rest ((3%nat, c) :: cs) = Some x.
Proof.
  intros w k0 v cs x E. unfold dw_K2, dw_tail in E.
  rewrite m_cat in E. apply m_lit_inv in E. destruct E as (r5 & -> & E).
  rewrite m_cat in E. apply m_star_inv in E. destruct E as (s2 & r6 & -> & Hs2 & E).
  rewrite m_cat in E. apply m_lit_inv in E. destruct E as (r7 & -> & E).
  rewrite m_cat in E. apply m_star_inv in E. destruct E as (s3 & r8 & -> & Hs3 & E).
  rewrite m_cat in E. apply m_lit_inv in E. destruct E as (r9 & -> & E).
  apply m_grp_star_inv in E. destruct E as (c & rest & -> & Hc & E).
  exists s2, s3, c, rest. repeat split; try assumption. apply ptrue_nonl. exact Hc.
Qed.

Lemma m_dw_K_inv : forall w k0 v cs x, m w dw_K v cs k0 = Some x ->
  exists s1 b s2 s3 c rest, v = wrapped s1 b s2 s3 (c ++ rest) /\
    spaces s1 /\ nonl b /\ spaces s2 /\ spaces s3 /\ nonl c /\
    k0 rest ((3%nat, c) :: (2%nat, b) :: cs) = Some x.
Proof.
  intros w k0 v cs x E. unfold dw_K in E.
  rewrite m_cat in E. apply m_lit_inv in E. destruct E as (r1 & -> & E).
  rewrite m_cat in E. apply m_star_inv in E. destruct E as (s1 & r2 & -> & Hs1 & E).
  rewrite m_cat in E. apply m_lit_inv in E. destruct E as (r3 & -> & E).
  rewrite m_cat in E. apply m_grp_star_inv in E. destruct E as (b & r4 & -> & Hb & E).
  apply m_dw_K2_inv in E. destruct E as (s2 & s3 & c & rest & -> & Hs2 & Hs3 & Hc & E).
  exists s1, b, s2, s3, c, rest. unfold wrapped, spaces.
  repeat split; try assumption. apply ptrue_nonl. exact Hb.
Qed.

Lemma m_dw_inv : forall w k0 v x, m w re_replace_do_while_0_0 v [] k0 = Some x ->
  exists a s1 b s2 s3 c rest, v = a ++ wrapped s1 b s2 s3 (c ++ rest) /\
    nonl a /\ spaces s1 /\ nonl b /\ spaces s2 /\ spaces s3 /\ nonl c /\
    k0 rest [(3%nat, c); (2%nat, b); (1%nat, a)] = Some x.
Proof.
  intros w k0 v x E. rewrite re_dw_eq, m_cat in E.
  apply m_grp_star_inv in E. destruct E as (a & r & -> & Ha & E).
  apply m_dw_K_inv in E. destruct E as (s1 & b & s2 & s3 & c & rest & -> & H1 & Hb & H2 & H3 & Hc & E).
  exists a, s1, b, s2, s3, c, rest. repeat split; try assumption. apply ptrue_nonl. exact Ha.
Qed.

(* ONE step removes one wrapper  do..{ }..while..(0)  -- and ALSO everything before the
   start of the match (u) and everything after the end of group 3 (rest) *)
Theorem do_while_step_inv : forall code t, do_while_step code = Some t ->
  exists u a s1 b s2 s3 c rest,
    code = u ++ a ++ wrapped s1 b s2 s3 (c ++ rest) /\ t = a ++ b ++ c /\
    nonl a /\ spaces s1 /\ nonl b /\ spaces s2 /\ spaces s3 /\ nonl c.
Proof.
  intros code t H. unfold do_while_step, rsearch in H.
  destruct (search_from code re_replace_do_while_0_0 code 0) as [[i cs]|] eqn:E; [|discriminate].
  apply search_from_inv in E. destruct E as (u & v & -> & E).
  apply m_dw_inv in E. destruct E as (a & s1 & b & s2 & s3 & c & rest & -> & Ha & H1 & Hb & H2 & H3 & Hc & E).
  injection E as <-. cbn [group Nat.eqb] in H. injection H as <-.
  exists u, a, s1, b, s2, s3, c, rest. repeat split; assumption.
Qed.
Print Assumptions do_while_step_inv.

Lemma wrapped_length : forall s1 b s2 s3 post,
  List.length (wrapped s1 b s2 s3 post) =
  12 + List.length s1 + List.length b + List.length s2 + List.length s3 + List.length post.
Proof. intros. unfold wrapped. rewrite !app_length. cbn. lia. Qed.

(* every step shortens the text by at least the 12 characters of  do{}while(0)  *)
Lemma do_while_step_shrinks : forall code t, do_while_step code = Some t ->
  List.length t + 12 <= List.length code.
Proof.
  intros code t H. apply do_while_step_inv in H.
  destruct H as (u & a & s1 & b & s2 & s3 & c & rest & -> & -> & _).
  rewrite !app_length, wrapped_length, !app_length. lia.
Qed.

(* what a text must contain for a step to fire *)
Lemma contains_wrapped_do : forall x s1 b s2 s3 post, contains (s2l "do") (x ++ wrapped s1 b s2 s3 post) = true.
Proof. intros. apply contains_suffix. unfold wrapped. apply starts_with_app. Qed.

Theorem do_while_step_needs : forall code t, do_while_step code = Some t ->
  contains (s2l "do") code = true /\ contains (s2l "while") code = true /\ contains (s2l "(0)") code = true /\
  In "{" code /\ In "}" code.
Proof.
  intros code t H. apply do_while_step_inv in H.
  destruct H as (u & a & s1 & b & s2 & s3 & c & rest & -> & _). unfold wrapped.
  assert (Hp : forall l y, contains l (l ++ y) = true) by (intros; apply (contains_suffix l []), starts_with_app).
  repeat split; auto 12 using contains_app_r.
  - do 4 (apply in_or_app; right). left. reflexivity.
  - do 6 (apply in_or_app; right). left. reflexivity.
Qed.

Lemma do_while_step_nodo : forall s, contains (s2l "do") s = false -> do_while_step s = None.
Proof.
  intros s H. destruct (do_while_step s) as [t|] eqn:E; [|reflexivity].
  apply do_while_step_needs in E. destruct E as [E _]. congruence.
Qed.

Theorem replace_do_while_0_no_do : forall code,
  contains (s2l "do") code = false -> replace_do_while_0 code = Some code.
Proof.
  intros code H. unfold replace_do_while_0. rewrite (do_while_step_nodo code H). reflexivity.
Qed.
Print Assumptions replace_do_while_0_no_do.

Theorem replace_do_while_0_no_while : forall code,
  contains (s2l "while") code = false -> replace_do_while_0 code = Some code.
Proof.
  intros code H. unfold replace_do_while_0. destruct (do_while_step code) as [t|] eqn:E; [|reflexivity].
  apply do_while_step_needs in E. destruct E as (_ & E & _). congruence.
Qed.

(* the fuel is always sufficient; the loop stops on a text on which no step fires *)
Lemma do_while_loop_total : forall fuel t, List.length t < 12 * fuel ->
  exists r, do_while_loop fuel t = Some r /\ do_while_step r = None /\ List.length r <= List.length t.
Proof.
  induction fuel as [|k IH]; intros t H; [lia|].
  cbn [do_while_loop]. destruct (do_while_step t) as [t'|] eqn:E.
  - pose proof (do_while_step_shrinks _ _ E) as Hs.
    destruct (IH t') as (r & Hr & Hn & Hl); [lia|]. exists r. repeat split; [exact Hr|exact Hn|lia].
  - exists t. repeat split; [exact E|lia].
Qed.

(* the exact condition under which the function is the identity; it never raises; otherwise it
   returns a strictly shorter text that ends with a newline and in which no wrapper is left *)
Theorem replace_do_while_0_total : forall code,
  (do_while_step code = None /\ replace_do_while_0 code = Some code) \/
  (exists t r, do_while_step code = Some t /\ replace_do_while_0 code = Some (r ++ [nl]) /\
               do_while_step r = None /\ List.length r + 12 <= List.length code).
Proof.
  intros code. unfold replace_do_while_0. destruct (do_while_step code) as [t|] eqn:E.
  - right. pose proof (do_while_step_shrinks _ _ E) as Hs.
    destruct (do_while_loop_total (List.length code) t) as (r & Hr & Hn & Hl); [lia|].
    exists t, r. rewrite Hr. repeat split; [exact Hn|lia].
  - left. split; reflexivity.
Qed.
Print Assumptions replace_do_while_0_total.

Corollary replace_do_while_0_never_fails : forall code, replace_do_while_0 code <> None.
Proof.
  intros code. destruct (replace_do_while_0_total code) as [[_ H]|(t & r & _ & H & _)]; rewrite H; discriminate.
Qed.

Corollary replace_do_while_0_id_iff : forall code,
  replace_do_while_0 code = Some code <-> do_while_step code = None.
Proof.
  intros code. destruct (replace_do_while_0_total code) as [[H1 H2]|(t & r & H1 & H2 & _ & Hl)].
  - tauto.
  - rewrite H1, H2. split; [|discriminate]. intros E. injection E as E.
    apply (f_equal (@List.length _)) in E. rewrite app_length in E. cbn in E. lia.
Qed.
Print Assumptions replace_do_while_0_id_iff.

(* f holds of some suffix of s (s itself and [] included) *)
Fixpoint any_suffix (f : str -> bool) (s : str) : bool :=
  f s || match s with [] => false | _ :: t => any_suffix f t end.

Lemma contains_any_suffix : forall l s, contains l s = any_suffix (starts_with l) s.
Proof. intros l s. induction s as [|c s IH]; cbn [contains any_suffix]; [reflexivity|]. rewrite IH. reflexivity. Qed.

Lemma any_suffix_false : forall f s, any_suffix f s = false -> forall u v, s = u ++ v -> f v = false.
Proof.
  intros f s. induction s as [|c s IH]; intros H u v E; cbn [any_suffix] in H; apply orb_false_iff in H; destruct H as [H1 H2].
  - destruct u; [|discriminate]. destruct v; [|discriminate]. exact H1.
  - destruct u as [|a u]; cbn [app] in E.
    + subst v. exact H1.
    + injection E as _ E. apply (IH H2 u v E).
Qed.

Lemma any_suffix_mono : forall (f g : str -> bool) s,
  (forall v, f v = true -> g v = true) -> any_suffix g s = false -> any_suffix f s = false.
Proof.
  intros f g s Hfg. induction s as [|c s IH]; cbn [any_suffix]; intros H; apply orb_false_iff in H; destruct H as [H1 H2].
  - rewrite orb_false_r. destruct (f []) eqn:E; [|reflexivity]. apply Hfg in E. congruence.
  - rewrite (IH H2), orb_false_r. destruct (f (c :: s)) eqn:E; [|reflexivity]. apply Hfg in E. congruence.
Qed.

(* a wrapper STARTS at v:  do \s* {   ;  a wrapper ENDS at v:  } \s* while \s* (0)  *)
Definition dw_start (v : str) : bool :=
  match prefix_lit (s2l "do") v with
  | Some r => starts_with (s2l "{") (strip_left is_space r)
  | None => false
  end.
Definition dw_end (v : str) : bool :=
  match prefix_lit (s2l "}") v with
  | Some r => match prefix_lit (s2l "while") (strip_left is_space r) with
              | Some r2 => starts_with (s2l "(0)") (strip_left is_space r2)
              | None => false end
  | None => false
  end.

Lemma dw_K_start : forall w v cs k0 x, m w dw_K v cs k0 = Some x -> dw_start v = true.
Proof.
  intros w v cs k0 x H. apply m_dw_K_inv in H.
  destruct H as (s1 & b & s2 & s3 & c & rest & -> & H1 & _).
  unfold dw_start, wrapped. rewrite prefix_lit_app.
  rewrite (strip_left_app_stops is_space s1 _ H1); reflexivity.
Qed.

Lemma dw_K2_end : forall w v cs k0 x, m w dw_K2 v cs k0 = Some x -> dw_end v = true.
Proof.
  intros w v cs k0 x E. apply m_dw_K2_inv in E. destruct E as (s2 & s3 & c & rest & -> & Hs2 & Hs3 & _).
  unfold dw_end. rewrite prefix_lit_app, (strip_left_app_stops is_space s2 _ Hs2) by reflexivity.
  rewrite prefix_lit_app, (strip_left_app_stops is_space s3 _ Hs3) by reflexivity. apply starts_with_app.
Qed.

(* blanks: white space other than newline *)
Definition blanks (s : str) : Prop := spaces s /\ nonl s.

(* a continuation that can only succeed where f holds fails wherever f holds of no suffix *)
Lemma allfail_any_suffix : forall f (k : str -> option caps) ys rest,
  (forall s x, k s = Some x -> f s = true) -> any_suffix f (ys ++ rest) = false -> allfail k ys rest.
Proof.
  intros f k ys rest Hk Hf u v ->. destruct (k (v ++ rest)) eqn:E; [|reflexivity].
  apply Hk in E. rewrite <- app_assoc in Hf. rewrite (any_suffix_false _ _ Hf u _ eq_refl) in E. discriminate.
Qed.

(* the part of the regex after group 1, on a wrapper *)
Lemma m_dw_K : forall w k0 cs s1 b s2 s3 post r,
  spaces s1 -> nonl b -> spaces s2 -> spaces s3 -> nonl post ->
  any_suffix dw_end (s2 ++ s2l "while" ++ s3 ++ s2l "(0)" ++ post) = false ->
  k0 [] ((3%nat, post) :: (2%nat, b) :: cs) = Some r ->
  m w dw_K (wrapped s1 b s2 s3 post) cs k0 = Some r.
Proof.
  intros w k0 cs s1 b s2 s3 post r Hs1 Hb Hs2 Hs3 Hpost Hend Hk0.
  unfold dw_K, wrapped. rewrite m_cat, m_lit_app, m_cat.
  apply m_star_rightmost; [exact Hs1|apply nolater_stops; reflexivity|].
  rewrite m_cat, m_lit_app, m_cat.
  apply m_grp_star_rightmost; [apply nonl_ptrue; exact Hb| |].
  - (* group 2 ends at the LAST "}" that ends a wrapper *)
    intros cs'. apply nolater_fail_end, fail_cons, (allfail_any_suffix dw_end); [|rewrite app_nil_r; exact Hend].
    intros s x. apply dw_K2_end.
  - unfold dw_K2, dw_tail. rewrite m_cat, m_lit_app, m_cat.
    apply m_star_rightmost; [exact Hs2|apply nolater_stops; reflexivity|].
    rewrite m_cat, m_lit_app, m_cat.
    apply m_star_rightmost; [exact Hs3|apply nolater_stops; reflexivity|].
    rewrite m_cat, m_lit_app, <- (app_nil_r post).
    apply m_grp_star_rightmost; [apply nonl_ptrue; exact Hpost|intros cs'; apply nolater_stops; exact I|exact Hk0].
Qed.

(* the whole regex at the position where the text before the wrapper starts *)
Lemma m_dw : forall w k0 pre s1 b s2 s3 post r,
  nonl pre -> spaces s1 -> nonl b -> spaces s2 -> spaces s3 -> nonl post ->
  any_suffix dw_start (tl (wrapped s1 b s2 s3 post)) = false ->
  any_suffix dw_end (s2 ++ s2l "while" ++ s3 ++ s2l "(0)" ++ post) = false ->
  k0 [] [(3%nat, post); (2%nat, b); (1%nat, pre)] = Some r ->
  m w re_replace_do_while_0_0 (pre ++ wrapped s1 b s2 s3 post) [] k0 = Some r.
Proof.
  intros w k0 pre s1 b s2 s3 post r Hpre Hs1 Hb Hs2 Hs3 Hpost Hstart Hend Hk0.
  rewrite re_dw_eq, m_cat.
  apply m_grp_star_rightmost; [apply nonl_ptrue; exact Hpre| |apply m_dw_K; assumption].
  (* group 1 ends at the LAST "do" that starts a wrapper *)
  intros cs'. unfold wrapped in *.
  apply nolater_fail_end, fail_cons, (allfail_any_suffix dw_start); [|rewrite app_nil_r; exact Hstart].
  intros s x. apply dw_K_start.
Qed.

(* ONE STEP on a text with one wrapper: exactly the wrapper goes *)
Theorem do_while_step_wrapper : forall pre s1 b s2 s3 post,
  nonl pre -> spaces s1 -> nonl b -> spaces s2 -> spaces s3 -> nonl post ->
  any_suffix dw_start (tl (wrapped s1 b s2 s3 post)) = false ->                       (* no wrapper starts later *)
  any_suffix dw_end (s2 ++ s2l "while" ++ s3 ++ s2l "(0)" ++ post) = false ->         (* no wrapper ends later *)
  do_while_step (pre ++ wrapped s1 b s2 s3 post) = Some (pre ++ b ++ post).
Proof.
  intros pre s1 b s2 s3 post Hpre H1 Hb H2 H3 Hpost Hstart Hend. unfold do_while_step, rsearch.
  erewrite search_from_hit.
  2:{ eapply m_dw; try eassumption. reflexivity. }
  reflexivity.
Qed.
Print Assumptions do_while_step_wrapper.

Theorem replace_do_while_0_wrapper : forall pre s1 b s2 s3 post,
  nonl pre -> spaces s1 -> nonl b -> spaces s2 -> spaces s3 -> nonl post ->
  any_suffix dw_start (tl (wrapped s1 b s2 s3 post)) = false ->
  any_suffix dw_end (s2 ++ s2l "while" ++ s3 ++ s2l "(0)" ++ post) = false ->
  do_while_step (pre ++ b ++ post) = None ->                                          (* nothing left to remove *)
  replace_do_while_0 (pre ++ wrapped s1 b s2 s3 post) = Some (pre ++ b ++ post ++ [nl]).
Proof.
  intros pre s1 b s2 s3 post Hpre H1 Hb H2 H3 Hpost Hstart Hend Hnone. unfold replace_do_while_0.
  rewrite do_while_step_wrapper by assumption.
  destruct (List.length (pre ++ wrapped s1 b s2 s3 post)) as [|f] eqn:El.
  - rewrite app_length, wrapped_length in El. lia.
  - cbn [do_while_loop]. rewrite Hnone. rewrite <- !app_assoc. reflexivity.
Qed.
Print Assumptions replace_do_while_0_wrapper.


Lemma spaces_no_char : forall c s, spaces s -> is_space c = false -> existsb (Ascii.eqb c) s = false.
Proof.
  intros c s Hs Hc. induction Hs as [|a s Ha Hs IH]; cbn [existsb]; [reflexivity|].
  rewrite IH, orb_false_r. destruct (Ascii.eqb_spec c a) as [->|_]; [congruence|reflexivity].
Qed.

Lemma contains_char_false : forall c s, existsb (Ascii.eqb c) s = false -> contains [c] s = false.
Proof.
  intros c s H. rewrite <- (app_nil_r s). rewrite (contains_skip c [] s [] H). reflexivity.
Qed.

Lemma contains_do_app : forall x y,
  contains (s2l "do") x = false -> starts_with (s2l "o") y = false ->
  contains (s2l "do") (x ++ y) = contains (s2l "do") y.
Proof.
  induction x as [|a x IH]; intros y Hx Hy; [reflexivity|].
  cbn [app]. cbn [contains] in Hx |- *. apply orb_false_iff in Hx. destruct Hx as [H1 H2].
  rewrite (IH y H2 Hy). destruct x as [|c x']; cbn [app starts_with s2l list_ascii_of_string] in H1, Hy |- *.
  - rewrite Hy, andb_false_r. reflexivity.
  - rewrite H1. reflexivity.
Qed.

Lemma dw_start_nodo : forall s1 b s2 s3 post,
  spaces s1 -> spaces s2 -> spaces s3 ->
  contains (s2l "do") b = false -> contains (s2l "do") post = false ->
  any_suffix dw_start (tl (wrapped s1 b s2 s3 post)) = false.
Proof.
  intros s1 b s2 s3 post H1 H2 H3 Hb Hpost.
  apply any_suffix_mono with (g := starts_with (s2l "do")).
  { intros v. unfold dw_start. rewrite starts_with_prefix_lit.
    destruct (prefix_lit (s2l "do") v); [reflexivity|discriminate]. }
  rewrite <- contains_any_suffix. unfold wrapped.
  change (tl (s2l "do" ++ s1 ++ s2l "{" ++ b ++ s2l "}" ++ s2 ++ s2l "while" ++ s3 ++ s2l "(0)" ++ post))
    with (["o"] ++ s1 ++ ["{"] ++ b ++ ["}"] ++ s2 ++ s2l "while" ++ s3 ++ s2l "(0)" ++ post).
  change (s2l "do") with ("d" :: ["o"]) in *.
  (* "d" occurs in none of the blocks except, possibly, b and post *)
  repeat (rewrite contains_skip by first [reflexivity | apply spaces_no_char; [assumption|reflexivity]]).
  rewrite (contains_do_app b) by (exact Hb || reflexivity). change (s2l "do") with ("d" :: ["o"]).
  repeat (rewrite contains_skip by first [reflexivity | apply spaces_no_char; [assumption|reflexivity]]).
  exact Hpost.
Qed.

Lemma dw_end_noclose : forall s2 s3 post,
  spaces s2 -> spaces s3 -> existsb (Ascii.eqb "}") post = false ->
  any_suffix dw_end (s2 ++ s2l "while" ++ s3 ++ s2l "(0)" ++ post) = false.
Proof.
  intros s2 s3 post H2 H3 Hpost.
  apply any_suffix_mono with (g := starts_with (s2l "}")).
  { intros v. unfold dw_end. rewrite starts_with_prefix_lit.
    destruct (prefix_lit (s2l "}") v); [reflexivity|discriminate]. }
  rewrite <- contains_any_suffix. apply contains_char_false. rewrite !existsb_app.
  rewrite (spaces_no_char "}" s2 H2) by reflexivity. rewrite (spaces_no_char "}" s3 H3) by reflexivity.
  rewrite Hpost. reflexivity.
Qed.

(* one wrapper somewhere on a single line, body and tail free of the letters "do", no "}" after it *)
Theorem replace_do_while_0_one : forall pre s1 b s2 s3 post,
  nonl pre -> blanks s1 -> nonl b -> blanks s2 -> blanks s3 -> nonl post ->
  contains (s2l "do") b = false -> contains (s2l "do") post = false ->
  existsb (Ascii.eqb "}") post = false ->
  do_while_step (pre ++ b ++ post) = None ->
  replace_do_while_0 (pre ++ wrapped s1 b s2 s3 post) = Some (pre ++ b ++ post ++ [nl]).
Proof.
  intros pre s1 b s2 s3 post Hpre H1 Hb H2 H3 Hpost Hdb Hdp Hcl Hnone.
  destruct H1 as [H1 _], H2 as [H2 _], H3 as [H3 _].
  apply replace_do_while_0_wrapper; try assumption.
  - apply dw_start_nodo; assumption.
  - apply dw_end_noclose; assumption.
Qed.
Print Assumptions replace_do_while_0_one.

(* the simplest wrapper: the body may contain braces; the result is the body (with the blanks
   that were inside the braces) FOLLOWED BY A NEWLINE *)
Theorem replace_do_while_0_simple : forall b,
  nonl b -> contains (s2l "do") b = false ->
  replace_do_while_0 (s2l "do {" ++ b ++ s2l "} while (0)") = Some (b ++ [nl]).
Proof.
  intros b Hb Hd.
  change (s2l "do {" ++ b ++ s2l "} while (0)") with ([] ++ wrapped [" "] b [" "] [" "] []).
  assert (Hbl : blanks [" "]) by (split; repeat constructor).
  rewrite replace_do_while_0_one; try assumption; try reflexivity; try constructor.
  rewrite app_nil_r. cbn [app]. apply do_while_step_nodo. exact Hd.
Qed.
Print Assumptions replace_do_while_0_simple.

Example dw_simple_braces :
  replace_do_while_0 (s2l "do { if (c) { a = 1; } } while (0)") = Some (s2l " if (c) { a = 1; } " ++ [nl]).
Proof.
  apply (replace_do_while_0_simple (s2l " if (c) { a = 1; } ")); [apply nonl_lit|]; reflexivity.
Qed.

(* the general theorem: wrapper inside braces, "}" after it, tabs as blanks; the two "no later
   wrapper" premises are decided by computation *)
Example dw_inside_braces :
  replace_do_while_0 (s2l "{ x; do" ++ ["009"] ++ s2l "{ window = 1; }while  (0); }")
  = Some (s2l "{ x;  window = 1; ; }" ++ [nl]).
Proof.
  apply (replace_do_while_0_wrapper (s2l "{ x; ") ["009"] (s2l " window = 1; ") [] (s2l "  ") (s2l "; }"));
    try (apply nonl_lit; reflexivity); try (repeat constructor; fail); vm_compute; reflexivity.
Qed.
Print Assumptions dw_simple_braces.
Print Assumptions dw_inside_braces.

(* the loop: two wrappers on one line, a nested wrapper *)
Example dw_two : replace_do_while_0 (s2l "do { a } while (0) do { b } while (0)") = Some (s2l " a   b " ++ [nl]).
Proof. vm_compute. reflexivity. Qed.
Example dw_nested : replace_do_while_0 (s2l "do { do { y } while (0) } while (0)") = Some (s2l "  y  " ++ [nl]).
Proof. vm_compute. reflexivity. Qed.

(* "removes exactly the wrapper and nothing else" is FALSE of the model on a text of several
   lines: the lines before and after the line with the wrapper are dropped (do_while_step_inv:
   u and rest), because the result is rebuilt from the three groups only and `.` stops at a newline *)
Example dw_drops_other_lines_refuted :
  replace_do_while_0 (s2l "x;" ++ [nl] ++ s2l "do { y } while (0)" ++ [nl] ++ s2l "z;") = Some (s2l " y " ++ [nl]).
Proof. vm_compute. reflexivity. Qed.
(* a body that spans lines is not recognised at all *)
Example dw_multiline_body_untouched :
  replace_do_while_0 (s2l "do {" ++ [nl] ++ s2l " a } while (0)") = Some (s2l "do {" ++ [nl] ++ s2l " a } while (0)").
Proof. vm_compute. reflexivity. Qed.
(* the identity case does NOT append the newline, the other case always does *)
Example dw_identity : replace_do_while_0 (s2l "x = 1;") = Some (s2l "x = 1;").
Proof. apply replace_do_while_0_no_do. reflexivity. Qed.

(* The call site (remove_onetime_do_whiles) applies replace_do_while_0 to an element of
   f.readlines(), i.e. to  code ++ [nl]  with `code` free of newlines.
   A GENERAL fact about the matcher (any regex): on a subject that is one line plus its final
   newline the matcher behaves as on the line alone, provided the continuation does so too and
   rejects the position after the newline. *)
Definition nlsim (k k' : str -> caps -> option caps) : Prop :=
  (forall s cs, nonl s -> k' (s ++ [nl]) cs = k s cs) /\ (forall cs, k' [] cs = None).

Lemma m_nil_none : forall r w cs k', (forall cs, k' [] cs = None) -> m w r [] cs k' = None.
Proof.
  induction r as [l|c|g c|g c|g c|a IHa b IHb|a IHa b IHb|n r IH| | |]; intros w cs k' H; cbn [m].
  - destruct l as [|c l]; cbn [prefix_lit]; [apply H|reflexivity].
  - reflexivity.
  - destruct g; cbn [star_g star_l]; rewrite H; reflexivity.
  - reflexivity.
  - apply H.
  - apply IHa. intros cs'. apply IHb. exact H.
  - rewrite IHa by exact H. apply IHb. exact H.
  - apply IH. intros cs'. apply H.
  - destruct (Nat.eqb _ _); [apply H|reflexivity].
  - cbn [eol]. apply H.
  - apply H.
Qed.

Lemma star_nl : forall (g : bool) p (k k' : str -> option caps),
  (forall s, nonl s -> k' (s ++ [nl]) = k s) -> k' [] = None ->
  forall s, nonl s ->
  (if g then star_g else star_l) p (s ++ [nl]) k' = (if g then star_g else star_l) p s k.
Proof.
  intros g p k k' H1 H2 s. induction s as [|a s IH]; intros Hs.
  - (* only the newline is left: both stars try it or not, and k' fails after it *)
    pose proof (H1 [] Hs) as E0. cbn [app] in E0.
    destruct g; cbn [app star_g star_l]; rewrite H2, E0; [|destruct (k [])]; destruct (p nl); reflexivity.
  - inversion Hs as [|? ? Ha Hs']; subst. pose proof (H1 (a :: s) Hs) as E. cbn [app] in E.
    destruct g; cbn [app star_g star_l] in IH |- *; rewrite (IH Hs'), E; reflexivity.
Qed.

(* a literal reaches the position after the newline only by consuming it *)
Lemma lit_nl : forall l (k k' : str -> option caps),
  (forall s, nonl s -> k' (s ++ [nl]) = k s) -> nonl l \/ k' [] = None ->
  forall s, nonl s ->
  match prefix_lit l (s ++ [nl]) with Some s' => k' s' | None => None end =
  match prefix_lit l s with Some s' => k s' | None => None end.
Proof.
  intros l k k' H1. induction l as [|c l IH]; intros H2 s Hs.
  - cbn [prefix_lit]. apply H1. exact Hs.
  - destruct s as [|d s]; cbn [app prefix_lit].
    + destruct (Ascii.eqb c nl) eqn:Ec; [|reflexivity]. destruct l; cbn [prefix_lit]; [|reflexivity].
      destruct H2 as [Hl|H2]; [inversion Hl; congruence|exact H2].
    + inversion Hs as [|? ? Hd Hs']; subst. destruct (Ascii.eqb c d); [|reflexivity]. apply IH; [|exact Hs'].
      destruct H2 as [Hl|H2]; [left; inversion Hl; assumption|right; exact H2].
Qed.

Lemma firstn_nl : forall (s s0 : str),
  firstn (List.length (s ++ [nl]) - List.length (s0 ++ [nl])) (s ++ [nl]) = firstn (List.length s - List.length s0) s.
Proof.
  intros s s0. rewrite !app_length. cbn [List.length].
  replace (List.length s + 1 - (List.length s0 + 1)) with (List.length s - List.length s0) by lia.
  rewrite firstn_app. replace (List.length s - List.length s0 - List.length s) with 0 by lia.
  cbn [firstn]. apply app_nil_r.
Qed.

Theorem m_nl : forall r w k k', nlsim k k' ->
  forall s cs, nonl s -> m (w ++ [nl]) r (s ++ [nl]) cs k' = m w r s cs k.
Proof.
  induction r as [l|c|g c|g c|g c|a IHa b IHb|a IHa b IHb|n r IH| | |]; intros w k k' [H1 H2] s cs Hs.
  - cbn [m]. apply (lit_nl l (fun s' => k s' cs) (fun s' => k' s' cs)); [intros; apply H1; assumption|right; apply H2|exact Hs].
  - destruct s as [|d s]; cbn [app m].
    + destruct (cmatch c nl); [apply H2|reflexivity].
    + inversion Hs as [|? ? Hd Hs']; subst. destruct (cmatch c d); [apply H1; exact Hs'|reflexivity].
  - cbn [m]. apply (star_nl g _ (fun s' => k s' cs) (fun s' => k' s' cs)); [intros; apply H1; assumption|apply H2|exact Hs].
  - destruct s as [|d s]; cbn [app m].
    + destruct (cmatch c nl); [|reflexivity]. destruct g; cbn [star_g star_l]; rewrite H2; reflexivity.
    + inversion Hs as [|? ? Hd Hs']; subst. destruct (cmatch c d); [|reflexivity].
      apply (star_nl g _ (fun s' => k s' cs) (fun s' => k' s' cs)); [intros; apply H1; assumption|apply H2|exact Hs'].
  - destruct s as [|d s]; cbn [app m].
    + rewrite H2. change [nl] with ([] ++ [nl]). rewrite (H1 [] cs Hs).
      destruct (cmatch c nl); [|reflexivity]. destruct g; destruct (k [] cs); reflexivity.
    + inversion Hs as [|? ? Hd Hs']; subst.
      change (d :: s ++ [nl]) with ((d :: s) ++ [nl]). rewrite (H1 (d :: s) cs Hs), (H1 s cs Hs'). reflexivity.
  - cbn [m]. apply IHa; [|exact Hs]. split.
    + intros s' cs' Hs'. apply IHb; [split; assumption|exact Hs'].
    + intros cs'. apply m_nil_none. exact H2.
  - cbn [m]. rewrite (IHa w k k' (conj H1 H2) s cs Hs), (IHb w k k' (conj H1 H2) s cs Hs). reflexivity.
  - cbn [m]. apply IH; [|exact Hs]. split.
    + intros s0 cs0 Hs0. rewrite firstn_nl. apply H1. exact Hs0.
    + intros cs0. apply H2.
  - cbn [m]. rewrite !app_length, !Nat.add_1_r. cbn [Nat.eqb].
    destruct (Nat.eqb _ _); [apply H1; exact Hs|reflexivity].
  - cbn [m]. destruct s as [|c [|d s]]; cbn [app eol].
    + rewrite Ascii.eqb_refl. change [nl] with ([] ++ [nl]). apply H1. exact Hs.
    + inversion Hs as [|? ? Hc _]; subst. rewrite Hc. reflexivity.
    + reflexivity.
  - cbn [m]. apply H1. exact Hs.
Qed.
Print Assumptions m_nl.

Lemma nlsim_cat : forall w a b k k',
  nlsim (fun s cs => m w b s cs k) (fun s cs => m (w ++ [nl]) b s cs k') ->
  nlsim (fun s cs => m w (RCat a b) s cs k) (fun s cs => m (w ++ [nl]) (RCat a b) s cs k').
Proof.
  intros w a b k k' H. split.
  - intros s cs Hs. cbn [m]. apply m_nl; assumption.
  - intros cs. cbn [m]. apply m_nil_none. apply H.
Qed.

Lemma g3_nl : forall w w' v s cs, nonl s ->
  m w' (RGrp 3 (RStar true CAny)) (s ++ [nl]) cs (k_end (v ++ [nl])) =
  m w (RGrp 3 (RStar true CAny)) s cs (k_end v).
Proof.
  (* both sides stop the group before the newline / at the end and return the same captures *)
  intros w w' v s cs Hs. transitivity (Some ((0%nat, v) :: (3%nat, s) :: cs));
    [|symmetry; rewrite <- (app_nil_r s) at 1];
    (apply m_grp_star_rightmost; [apply nonl_ptrue; exact Hs|intros; apply nolater_stops; reflexivity|]);
    unfold k_end.
  - rewrite firstn_len_app. reflexivity.
  - cbn [List.length]. rewrite Nat.sub_0_r, firstn_all. reflexivity.
Qed.

Lemma dw_tail_nlsim : forall w v,
  nlsim (fun s cs => m w dw_tail s cs (k_end v)) (fun s cs => m (w ++ [nl]) dw_tail s cs (k_end (v ++ [nl]))).
Proof.
  intros w v. split.
  - intros s cs Hs. unfold dw_tail. rewrite !m_cat, !m_lit_unfold.
    apply (lit_nl (s2l "(0)")
             (fun s' => m w (RGrp 3 (RStar true CAny)) s' cs (k_end v))
             (fun s' => m (w ++ [nl]) (RGrp 3 (RStar true CAny)) s' cs (k_end (v ++ [nl])))).
    + intros s0 Hs0. apply g3_nl. exact Hs0.
    + left. apply nonl_lit. reflexivity.
    + exact Hs.
  - intros cs. reflexivity.
Qed.

Lemma m_dw_nl : forall w v, nonl v ->
  m (w ++ [nl]) re_replace_do_while_0_0 (v ++ [nl]) [] (k_end (v ++ [nl])) =
  m w re_replace_do_while_0_0 v [] (k_end v).
Proof.
  intros w v Hv. rewrite re_dw_eq, !m_cat. apply m_nl; [|exact Hv].
  unfold dw_K, dw_K2. do 8 apply nlsim_cat. apply dw_tail_nlsim.
Qed.

Lemma m_dw_nil : forall w k, m w re_replace_do_while_0_0 [] [] k = None.
Proof.
  intros w k. destruct (m w re_replace_do_while_0_0 [] [] k) as [x|] eqn:E; [|reflexivity].
  apply m_dw_inv in E. destruct E as (a & s1 & b & s2 & s3 & c & rest & E & _).
  apply (f_equal (@List.length _)) in E. rewrite app_length, wrapped_length in E. cbn [List.length] in E. lia.
Qed.

Lemma search_from_dw_nl : forall w s n, nonl s ->
  search_from (w ++ [nl]) re_replace_do_while_0_0 (s ++ [nl]) n = search_from w re_replace_do_while_0_0 s n.
Proof.
  intros w s. induction s as [|a s IH]; intros n Hs;
    rewrite (search_from_unfold _ _ (_ ++ [nl])), (search_from_unfold w), (m_dw_nl w _ Hs);
    (destruct (m w re_replace_do_while_0_0 _ [] (k_end _)); [reflexivity|cbn [app]]).
  - rewrite search_from_unfold, m_dw_nil. reflexivity.
  - inversion Hs as [|? ? Ha Hs']; subst. apply IH. exact Hs'.
Qed.

(* ONE STEP does not see the line terminator *)
Theorem do_while_step_nl : forall code, nonl code -> do_while_step (code ++ [nl]) = do_while_step code.
Proof.
  intros code H. unfold do_while_step, rsearch. rewrite (search_from_dw_nl code code 0 H). reflexivity.
Qed.
Print Assumptions do_while_step_nl.

(* what a step returns never contains a newline (whatever the input) *)
Lemma do_while_step_nonl : forall code t, do_while_step code = Some t -> nonl t.
Proof.
  intros code t H. apply do_while_step_inv in H.
  destruct H as (u & a & s1 & b & s2 & s3 & c & rest & _ & -> & Ha & _ & Hb & _ & _ & Hc).
  repeat apply nonl_app; assumption.
Qed.

Lemma do_while_loop_nonl : forall fuel t r, nonl t -> do_while_loop fuel t = Some r -> nonl r.
Proof.
  induction fuel as [|k IH]; intros t r Ht H; cbn [do_while_loop] in H; [discriminate|].
  destruct (do_while_step t) as [t'|] eqn:E.
  - apply (IH t' r); [eapply do_while_step_nonl; exact E|exact H].
  - injection H as <-. exact Ht.
Qed.

Lemma do_while_loop_mono : forall fuel t r, do_while_loop fuel t = Some r -> do_while_loop (S fuel) t = Some r.
Proof.
  induction fuel as [|k IH]; intros t r H; [discriminate|].
  cbn [do_while_loop] in H. change (do_while_loop (S (S k)) t)
    with (match do_while_step t with Some t' => do_while_loop (S k) t' | None => Some t end).
  destruct (do_while_step t) as [t'|]; [apply IH; exact H|exact H].
Qed.

(* the exact relation between the call on a terminated line and the call on the bare line *)
Theorem replace_do_while_0_nl : forall code, nonl code ->
  replace_do_while_0 (code ++ [nl]) =
  match do_while_step code with
  | None => Some (code ++ [nl])
  | Some _ => replace_do_while_0 code
  end.
Proof.
  intros code H. unfold replace_do_while_0. rewrite (do_while_step_nl code H).
  destruct (do_while_step code) as [t|] eqn:E; [|reflexivity].
  rewrite app_length. cbn [List.length]. replace (List.length code + 1) with (S (List.length code)) by lia.
  destruct (do_while_loop_total (List.length code) t) as (r & Hr & _).
  { pose proof (do_while_step_shrinks _ _ E). lia. }
  rewrite (do_while_loop_mono _ _ _ Hr), Hr. reflexivity.
Qed.
Print Assumptions replace_do_while_0_nl.

Theorem replace_do_while_0_line_id : forall code,
  nonl code -> do_while_step code = None -> replace_do_while_0 (code ++ [nl]) = Some (code ++ [nl]).
Proof. intros code H E. rewrite (replace_do_while_0_nl code H), E. reflexivity. Qed.
Print Assumptions replace_do_while_0_line_id.

Theorem replace_do_while_0_line : forall code r,
  nonl code -> replace_do_while_0 code = Some (r ++ [nl]) -> do_while_step code <> None ->
  replace_do_while_0 (code ++ [nl]) = Some (r ++ [nl]).
Proof.
  intros code r H Hr Hs. rewrite (replace_do_while_0_nl code H).
  destruct (do_while_step code); [exact Hr|congruence].
Qed.
Print Assumptions replace_do_while_0_line.

(* the same as an equation between the two calls.  The premise `do_while_step code <> None` is
   needed: when no step fires the bare line comes back WITHOUT a newline and the terminated
   line WITH its newline (replace_do_while_0_nl). *)
Corollary replace_do_while_0_line_eq : forall code,
  nonl code -> do_while_step code <> None -> replace_do_while_0 (code ++ [nl]) = replace_do_while_0 code.
Proof.
  intros code H Hs. rewrite (replace_do_while_0_nl code H). destruct (do_while_step code); [reflexivity|congruence].
Qed.

(* the result of a call-site line is again ONE terminated line, with no wrapper left *)
Theorem replace_do_while_0_line_shape : forall code, nonl code ->
  exists r, replace_do_while_0 (code ++ [nl]) = Some (r ++ [nl]) /\ nonl r /\ do_while_step r = None /\
            List.length r <= List.length code.
Proof.
  intros code H. rewrite (replace_do_while_0_nl code H).
  destruct (replace_do_while_0_total code) as [[E1 E2]|(t & r & E1 & E2 & E3 & E4)]; rewrite E1.
  - exists code. repeat split; [exact H|exact E1|lia].
  - exists r. rewrite E2. repeat split; [|exact E3|lia].
    unfold replace_do_while_0 in E2. rewrite E1 in E2.
    destruct (do_while_loop (List.length code) t) as [r'|] eqn:El; [|discriminate].
    injection E2 as E2. apply app_inv_tail in E2. subst r'.
    eapply do_while_loop_nonl; [eapply do_while_step_nonl; exact E1|exact El].
Qed.
Print Assumptions replace_do_while_0_line_shape.

Lemma wrapped_nonl : forall s1 b s2 s3 post,
  blanks s1 -> nonl b -> blanks s2 -> blanks s3 -> nonl post -> nonl (wrapped s1 b s2 s3 post).
Proof.
  intros s1 b s2 s3 post [_ H1] Hb [_ H2] [_ H3] Hp. unfold wrapped.
  repeat apply nonl_app; try assumption; apply nonl_lit; reflexivity.
Qed.

Theorem replace_do_while_0_wrapper_line : forall pre s1 b s2 s3 post,
  nonl pre -> blanks s1 -> nonl b -> blanks s2 -> blanks s3 -> nonl post ->
  any_suffix dw_start (tl (wrapped s1 b s2 s3 post)) = false ->
  any_suffix dw_end (s2 ++ s2l "while" ++ s3 ++ s2l "(0)" ++ post) = false ->
  do_while_step (pre ++ b ++ post) = None ->
  replace_do_while_0 ((pre ++ wrapped s1 b s2 s3 post) ++ [nl]) = Some (pre ++ b ++ post ++ [nl]).
Proof.
  intros pre s1 b s2 s3 post Hpre H1 Hb H2 H3 Hpost Hstart Hend Hnone.
  rewrite replace_do_while_0_line_eq.
  - apply replace_do_while_0_wrapper; try assumption; [apply H1|apply H2|apply H3].
  - apply nonl_app; [exact Hpre|apply wrapped_nonl; assumption].
  - rewrite do_while_step_wrapper; try assumption; [discriminate|apply H1|apply H2|apply H3].
Qed.
Print Assumptions replace_do_while_0_wrapper_line.

Theorem replace_do_while_0_one_line : forall pre s1 b s2 s3 post,
  nonl pre -> blanks s1 -> nonl b -> blanks s2 -> blanks s3 -> nonl post ->
  contains (s2l "do") b = false -> contains (s2l "do") post = false ->
  existsb (Ascii.eqb "}") post = false ->
  do_while_step (pre ++ b ++ post) = None ->
  replace_do_while_0 ((pre ++ wrapped s1 b s2 s3 post) ++ [nl]) = Some (pre ++ b ++ post ++ [nl]).
Proof.
  intros pre s1 b s2 s3 post Hpre H1 Hb H2 H3 Hpost Hdb Hdp Hcl Hnone.
  apply replace_do_while_0_wrapper_line; try assumption.
  - apply dw_start_nodo; try assumption; [apply H1|apply H2|apply H3].
  - apply dw_end_noclose; try assumption; [apply H2|apply H3].
Qed.
Print Assumptions replace_do_while_0_one_line.

Theorem replace_do_while_0_simple_line : forall b,
  nonl b -> contains (s2l "do") b = false ->
  replace_do_while_0 (s2l "do {" ++ b ++ s2l "} while (0)" ++ [nl]) = Some (b ++ [nl]).
Proof.
  intros b Hb Hd.
  replace (s2l "do {" ++ b ++ s2l "} while (0)" ++ [nl]) with ((s2l "do {" ++ b ++ s2l "} while (0)") ++ [nl])
    by (rewrite <- !app_assoc; reflexivity).
  rewrite replace_do_while_0_line_eq.
  - apply replace_do_while_0_simple; assumption.
  - repeat apply nonl_app; try assumption; apply nonl_lit; reflexivity.
  - intros E. apply replace_do_while_0_id_iff in E. rewrite (replace_do_while_0_simple b Hb Hd) in E.
    injection E as E. apply (f_equal (@List.length _)) in E. cbn in E. rewrite !app_length in E. cbn in E. lia.
Qed.
Print Assumptions replace_do_while_0_simple_line.

Example dw_line_simple :
  replace_do_while_0 (s2l "do { x = 1; } while (0)" ++ [nl]) = Some (s2l " x = 1; " ++ [nl]).
Proof. apply (replace_do_while_0_simple_line (s2l " x = 1; ")); [apply nonl_lit|]; reflexivity. Qed.
Example dw_line_identity : replace_do_while_0 (s2l "x = 1;" ++ [nl]) = Some (s2l "x = 1;" ++ [nl]).
Proof.
  apply replace_do_while_0_line_id; [apply nonl_lit; reflexivity|]. apply do_while_step_nodo. reflexivity.
Qed.
