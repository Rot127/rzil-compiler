(* The opcode tables every theorem uses (model/OpTables.v, hand-written) are EXACTLY what the compiler's Pure classes
   emit: gen/OpTablesGen.v is regenerated on every run from the Python sources (tools/vt/tr_optables.py: symbolic
   execution of the il_exec methods; exhaustive execution of the value-type helpers), and this file proves, for every
   operator of each enum, every operand type and every operand term, that elaborating the emitted text (sem/CBody.elab,
   the same function that reads the real compiler output in the K2 correspondence) gives the term of model/OpTables.v.
   A change to an il_exec method therefore breaks one of these proofs (or the translator, which fails closed). *)
From Coq Require Import ZArith NArith List Bool String.
From RZ.sem Require Import RzIL CBody.
From RZ.model Require Import Types OpTables.
From RZ.gen Require Import OpTablesGen.
Import ListNotations.
Local Open Scope string_scope.

(* the operand terms the holes $0 / $1 of an emitted text stand for *)
Definition G2 (a b : pure) : denv := [("$0", BPure a); ("$1", BPure b)].
Definition noparam : string -> bool := fun _ => false.
Definition elab_text (a b : pure) (t : option sexp) : option pure :=
  match t with Some s => elab (G2 a b) noparam s | None => None end.

Theorem cast_text_ok : forall target src x op t1 ib0 ic0 ib1 ic1 il0 v0 b,
  elab_text x b (cast_text op target src t1 ib0 ic0 ib1 ic1 il0 v0) = Some (cast_il_exec target src (il0 && (0 <=? v0)%Z) x).
Proof.
  intros. unfold cast_text, cast_il_exec, elab_text.
  destruct (vt_sg target), (vt_sg src), (vt_w src <? vt_w target)%N, (il0 && (0 <=? v0)%Z), (vt_w target); vm_compute; reflexivity.
Qed.

Theorem bitop_text_ok : forall op ta a b tself t1 ib0 ic0 ib1 ic1 il0 v0, In op bitop_ops ->
  elab_text a b (bitop_text op tself ta t1 ib0 ic0 ib1 ic1 il0 v0) = Some (bitop_il_exec op ta a b).
Proof.
  intros op [sa ? ? ? ? ? ? ? ?] a b tself t1 ib0 ic0 ib1 ic1 il0 v0 Hin.
  destruct sa; repeat (destruct Hin as [<- | Hin]); try contradiction; vm_compute; reflexivity.
Qed.
(* an operator outside the enum: the Python raises *)
Lemma bitop_text_other : forall op tself t0 t1 ib0 ic0 ib1 ic1 il0 v0, ~ In op bitop_ops -> bitop_text op tself t0 t1 ib0 ic0 ib1 ic1 il0 v0 = None.
Proof.
  intros op tself t0 t1 ib0 ic0 ib1 ic1 il0 v0 H. unfold bitop_text, bitop_ops in *. cbn [In] in H.
  repeat match goal with |- context [String.eqb op ?s] => destruct (String.eqb_spec op s) as [->|_]; [exfalso; apply H; tauto|] end.
  reflexivity.
Qed.

(* both operands are floats: the case in which CompareOp and ArithmeticOp emit the F* opcodes *)
Definition cmp_float (ta tb : vtype) : bool := vt_float ta && vt_float tb.
Theorem compareop_text_ok : forall op ta tb a b tself ib0 ic0 ib1 ic1 il0 v0, In op compareop_ops ->
  cmp_float ta tb = false \/ op <> "!=" ->
  elab_text a b (compareop_text op tself ta tb ib0 ic0 ib1 ic1 il0 v0) = Some (cmp_il_exec op ta tb a b).
Proof.
  (* with the fields of the two types as variables, the cases are taken before anything is unfolded, on a small goal *)
  intros op [sa ? ? ? ? fa ? ? ?] [sb ? ? ? ? fb ? ? ?] a b tself ib0 ic0 ib1 ic1 il0 v0 Hin Hne.
  destruct sa, sb, fa, fb; repeat (destruct Hin as [<- | Hin]); try contradiction; try (vm_compute; reflexivity);
    destruct Hne as [Hne | Hne]; try discriminate Hne; exfalso; apply Hne; reflexivity.
Qed.
(* the one text the reader of emitted bodies does not elaborate: `!=` on two floats is FINV(EQ(a, b)) *)
Example compareop_text_float_ne : forall ta tb tself ib0 ic0 ib1 ic1 il0 v0, cmp_float ta tb = true ->
  compareop_text "!=" tself ta tb ib0 ic0 ib1 ic1 il0 v0 = Some (SApp "FINV" [SApp "EQ" [SVar "$0"; SVar "$1"]]).
Proof.
  intros ta tb tself ib0 ic0 ib1 ic1 il0 v0 H. unfold cmp_float in H. apply andb_true_iff in H. destruct H as [H1 H2].
  unfold compareop_text. rewrite H1, H2. destruct (vt_sg ta || vt_sg tb); reflexivity.
Qed.

Definition arith_ops : list (string * binop) := [("+", BAdd); ("-", BSub); ("*", BMul); ("/", BDiv); ("%", BMod)].
Lemma arith_ops_cover : map fst arith_ops = arithmeticop_ops.
Proof. reflexivity. Qed.
(* excluded: `%` on two floats is emitted as FMOD(rmode, a, b), which the reader of emitted bodies (CBody.elab) does not know *)
Theorem arithmeticop_text_ok : forall op o ta tb a b tself ib0 ic0 ib1 ic1 il0 v0, In (op, o) arith_ops ->
  cmp_float ta tb = false \/ op <> "%" ->
  elab_text a b (arithmeticop_text op tself ta tb ib0 ic0 ib1 ic1 il0 v0) = Some (arith_il_exec o ta tb a b).
Proof.
  intros op o [? ? ? ? ? fa ? ? ?] [? ? ? ? ? fb ? ? ?] a b tself ib0 ic0 ib1 ic1 il0 v0 Hin Hne.
  destruct fa, fb; repeat (destruct Hin as [Hin | Hin]; [injection Hin as <- <- |]); try contradiction;
    try (vm_compute; reflexivity);
    destruct Hne as [Hne | Hne]; try discriminate Hne; exfalso; apply Hne; reflexivity.
Qed.

Theorem booleanop_text_ok : forall op a b ib0 ic0 ib1 ic1 il0 v0 tself t0 t1, In op booleanop_ops ->
  elab_text a b (booleanop_text op tself t0 t1 ib0 ic0 ib1 ic1 il0 v0) = Some (boolop_il_exec op (ib0 || ic0) (ib1 || ic1) a b).
Proof.
  intros op a b ib0 ic0 ib1 ic1 il0 v0 tself t0 t1 Hin.
  destruct ib0, ic0, ib1, ic1; repeat (destruct Hin as [<- | Hin]); try contradiction; vm_compute; reflexivity.
Qed.

Definition G3 (a b c : pure) : denv := [("$0", BPure a); ("$1", BPure b); ("$2", BPure c)].
Theorem ternary_text_ok : forall c a b ib0 ic0 ib1 ic1 il0 v0 op tself t0 t1,
  match ternary_text op tself t0 t1 ib0 ic0 ib1 ic1 il0 v0 with Some s => elab (G3 c a b) noparam s | None => None end
  = Some (PIte (cond_wrap (ib0 || ic0) c) a b).
Proof. intros. unfold ternary_text, cond_wrap. destruct (ib0 || ic0); vm_compute; reflexivity. Qed.
Theorem memload_text_ok : forall a b tself op t0 t1 ib0 ic0 ib1 ic1 il0 v0,
  elab_text a b (memload_text op tself t0 t1 ib0 ic0 ib1 ic1 il0 v0) = Some (PLoad (vt_w tself) a).
Proof. intros. unfold memload_text, elab_text. destruct (vt_w tself); vm_compute; reflexivity. Qed.

(* The Effect classes' il_write.  (These are the shapes model/Lower.v builds for if / for / JUMP / mem_store / nop / empty statements: EBranch (cond_of c) t f,
   ERepeat (cond_of c) body, ESeq (ESetL "jump_flag" true) (ESetL "jump_target" t), EStore a v, ENop, EEmpty; cond_of = cond_wrap (is_boolop c)) *)
Definition elab_eff_text (G : denv) (t : option sexp) : option effect :=
  match t with Some s => elab_eff G noparam s | None => None end.
Theorem branch_text_ok : forall c t f ib0 ic0 ib1 ic1 il0 v0 op tself t0 t1,
  elab_eff_text [("$0", BPure c); ("$1", BEff t); ("$2", BEff f)] (branch_text op tself t0 t1 ib0 ic0 ib1 ic1 il0 v0)
  = Some (EBranch (cond_wrap (ib0 || ic0) c) t f).
Proof. intros. unfold branch_text, cond_wrap, elab_eff_text. destruct (ib0 || ic0); vm_compute; reflexivity. Qed.
Theorem forloop_text_ok : forall c body ib0 ic0 ib1 ic1 il0 v0 op tself t0 t1,
  elab_eff_text [("$0", BPure c); ("$1", BEff body)] (forloop_text op tself t0 t1 ib0 ic0 ib1 ic1 il0 v0)
  = Some (ERepeat (cond_wrap (ib0 || ic0) c) body).
Proof. intros. unfold forloop_text, cond_wrap, elab_eff_text. destruct (ib0 || ic0); vm_compute; reflexivity. Qed.
Theorem jump_text_ok : forall t op tself t0 t1 ib0 ic0 ib1 ic1 il0 v0,
  elab_eff_text [("$0", BPure t)] (jump_text op tself t0 t1 ib0 ic0 ib1 ic1 il0 v0)
  = Some (ESeq (ESetL "jump_flag" (PBool true)) (ESetL "jump_target" t)).
Proof. intros. vm_compute. reflexivity. Qed.
Theorem memstore_text_ok : forall a v op tself t0 t1 ib0 ic0 ib1 ic1 il0 v0,
  elab_eff_text [("$0", BPure a); ("$1", BPure v)] (memstore_text op tself t0 t1 ib0 ic0 ib1 ic1 il0 v0) = Some (EStore a v).
Proof. intros. vm_compute. reflexivity. Qed.
Theorem nop_empty_text_ok : forall op tself t0 t1 ib0 ic0 ib1 ic1 il0 v0,
  elab_eff_text [] (nop_text op tself t0 t1 ib0 ic0 ib1 ic1 il0 v0) = Some ENop /\
  elab_eff_text [] (empty_text op tself t0 t1 ib0 ic0 ib1 ic1 il0 v0) = Some EEmpty.
Proof. intros. split; vm_compute; reflexivity. Qed.

(* SubRoutine.il_read.  (model/Lower.v, call of a sub-routine: the temporary of the call is set to SIGNED / UNSIGNED(<width of the DECLARED return type>, VARL("ret_val"))) *)
Theorem subroutine_read_text_ok : forall ret op t0 t1 ib0 ic0 ib1 ic1 il0 v0,
  match subroutine_text op ret t0 t1 ib0 ic0 ib1 ic1 il0 v0 with Some s => elab [] noparam s | None => None end
  = Some (PSignExt (vt_sg ret) (if (vt_w ret =? 0)%N then 32%N else vt_w ret) (PVarL "ret_val")).
Proof.
  intros. unfold subroutine_text. destruct (vt_sg ret), (vt_w ret) as [|p]; vm_compute; reflexivity.
Qed.

(* PostfixIncDec.il_exec.  (model/Lower.v, postfix ++ / --: the operand is set / written to PIncDec inc (read of the operand) (width of its type); the other four
   members of HybridType make the method raise) *)
Theorem postfixincdec_text_ok : forall op a b tself t0 t1 ib0 ic0 ib1 ic1 il0 v0, In op ["++"; "--"] ->
  elab_text a b (postfixincdec_text op tself t0 t1 ib0 ic0 ib1 ic1 il0 v0) = Some (PIncDec (String.eqb op "++") a (vt_w tself)).
Proof.
  intros op a b tself t0 t1 ib0 ic0 ib1 ic1 il0 v0 Hin. cbn [In] in Hin.
  destruct Hin as [<- | [<- | []]]; unfold postfixincdec_text, elab_text; destruct (vt_w tself); vm_compute; reflexivity.
Qed.
Lemma postfixincdec_text_other : forall op tself t0 t1 ib0 ic0 ib1 ic1 il0 v0, In op ["call"; "sub_routine_call"; "sub_routine"; "gcc_expr"] ->
  postfixincdec_text op tself t0 t1 ib0 ic0 ib1 ic1 il0 v0 = None.
Proof. intros op tself t0 t1 ib0 ic0 ib1 ic1 il0 v0 Hin. cbn [In] in Hin. repeat (destruct Hin as [<- | Hin]; [reflexivity|]). contradiction. Qed.

(* the value-type helpers, on their whole domains *)
Definition otype_eqb (a b : option (bool * N)) : bool :=
  match a, b with
  | Some (s, w), Some (s', w') => Bool.eqb s s' && N.eqb w w'
  | None, None => true
  | _, _ => false
  end.
(* get_value_type_from_reg_type: registers are signed, a pair doubles the width (Lower.lower_reg does the doubling) *)
Theorem reg_type_table_ok :
  forallb (fun r : string * bool * option (bool * N) => let '(c, isp, t) := r in
             otype_eqb t (option_map (fun w => (true, if isp then (w * 2)%N else w)) (reg_width c))) reg_type_table = true.
Proof. vm_compute. reflexivity. Qed.
Theorem imm_type_table_ok :
  forallb (fun r : string * option (bool * N) => otype_eqb (snd r) (Some (imm_signed (fst r), 32%N))) imm_type_table = true.
Proof. vm_compute. reflexivity. Qed.
Theorem number_type_table_ok :
  forallb (fun r : string * option (bool * N) =>
             otype_eqb (snd r) (option_map (fun t => (vt_sg t, vt_w t)) (number_vtype (fst r)))) number_type_table = true.
Proof. vm_compute. reflexivity. Qed.
(* the tables are not vacuous *)
Example tables_nonempty : (100 <? List.length reg_type_table)%nat && (50 <? List.length imm_type_table)%nat && (10 <? List.length number_type_table)%nat = true.
Proof. vm_compute. reflexivity. Qed.
