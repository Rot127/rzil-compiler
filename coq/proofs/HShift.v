(* C14 support: the result of a compilation depends on the surviving counter hybrid_op_count only
   through the NUMBERING of the h_tmpN temporaries (counter-shift equivariance).

   Main theorem (hshift_tlower_info, end of file): for every configuration cfg, every start value n of
   the counter and every program prog,
       no_htmp_ident prog = true  ->  n + hyb_bound prog <= LIM  ->
       tlower_info (set_hstart cfg n) prog = rres n (tlower_info (set_hstart cfg 0) prog)
   where rres n maps  Err msg |-> Err msg  and  OK i |-> OK (rtinfo n i):  the effect with every
   local-variable occurrence x (SETL x, VARL x) replaced by shn n x, the counter n + ti_hcount i, the same
   leftover / dropped facts and the renamed list of removed names.  shn n maps "h_tmp<k>" (canonical
   decimal) to "h_tmp<k+n>" and every other name to itself.  Inside the section n is fixed and the renaming
   functions are shn, rpure, reff, rtinfo; after it they are also available as shift, rename_pure, rename_eff,
   rename_tinfo.  Corollaries: hshift_error_iff, hshift_ok, hshift_tlower, hshift_tlower_checked,
   C14_history_independent (cfg_insn h).

   Side conditions, both with witnesses at the end of the file:
   (1) no_htmp_ident: no identifier / immediate / declared name of the program starts with "h_tmp".
       NECESSARY (htmp_ident_refuted): a user variable spelled h_tmp7 is kept apart from the temporary of
       x++ by a fresh compiler and is overwritten by it after seven earlier hybrids.
   (2) n + hyb_bound prog <= 10^40: an artefact of the MODEL (string_of_N renders 40 digits: lim_artefact),
       not of the compiler.
   Proof: a lock-step simulation (sim) between the run from a state and the run from the renamed state,
   helper by helper, then by mutual induction over the AST (NoDrop.ast_full_ind), then through the
   finalisation (fin_eff commutes with the renaming). *)
From Coq Require Import ZArith NArith List Bool String Ascii Lia.
From RZ.sem Require Import RzIL.
From RZ.model Require Import Ast Types OpTables Lower Guards.
From RZ.gen Require Import Resources.
From RZ.proofs Require Import NoDrop.
From RZ.proofs Require SortSound.
(* for the semantic example at the end of the file *)
From RZ.sem Require CSem Diff.
From RZ.proofs Require Witness.
Import ListNotations.
Local Open Scope string_scope.

Definition hname (k : N) : string := "h_tmp" +++ string_of_N k.
(* the very test the model applies to identifiers (Lower.v, lower_operand, OIdent); TmpCheck.is_tmp is the same *)
Definition is_htmp (x : string) : bool := String.eqb (substring 0 5 x) "h_tmp".

(* the number a decimal numeral s denotes, read after the digits already accumulated in a: a left inverse of
   string_of_N below LIM (parse_string_of_N), which is what makes hname injective there *)
Fixpoint parse_dec (s : string) (a : N) : N :=
  match s with
  | EmptyString => a
  | String c t => parse_dec t (10 * a + (N_of_ascii c - 48))%N
  end.

(* string_of_N (model/Types.v) renders at most 40 digits: it is injective below 10^40 only *)
Definition LIM : N := (10 ^ 40)%N.

Lemma parse_lin s : forall a, parse_dec s a = (a * 10 ^ N.of_nat (String.length s) + parse_dec s 0)%N.
Proof.
  induction s as [|c t IH]; intros a.
  - cbn [parse_dec String.length N.of_nat]. rewrite N.pow_0_r. lia.
  - cbn [parse_dec String.length]. rewrite (IH (10 * a + _)%N). rewrite (IH (10 * 0 + _)%N).
    rewrite Nat2N.inj_succ, N.pow_succ_r'. lia.
Qed.

Lemma digit_val d : (d < 10)%N -> (N_of_ascii (ascii_of_N (48 + d)) - 48 = d)%N.
Proof. intros Hd. rewrite N_ascii_embedding by lia. lia. Qed.

(* string_of_N_fuel puts the digits of k in front of acc: the value read back is k shifted past acc *)
Lemma fuel_val f : forall k acc, (k < 10 ^ N.of_nat (S f))%N ->
  parse_dec (string_of_N_fuel (S f) k acc) 0 = (k * 10 ^ N.of_nat (String.length acc) + parse_dec acc 0)%N.
Proof.
  induction f as [|f IH]; intros k acc Hk.
  - cbn [string_of_N_fuel].
    change (10 ^ N.of_nat 1)%N with 10%N in Hk.
    assert (Hq : (k / 10 = 0)%N). { apply N.div_small. lia. }
    rewrite Hq. cbn [N.eqb]. unfold digit_char. cbn [append parse_dec].
    rewrite parse_lin. rewrite digit_val by (apply N.mod_lt; lia).
    rewrite N.mod_small by lia. lia.
  - remember (S f) as f1 eqn:Hf1. cbn [string_of_N_fuel].
    destruct (N.eqb_spec (k / 10) 0) as [Hq|Hq].
    + unfold digit_char. cbn [append parse_dec]. rewrite parse_lin. rewrite digit_val by (apply N.mod_lt; lia).
      assert (Hlt : (k < 10)%N).
      { destruct (N.lt_ge_cases k 10) as [H|H]; [exact H|]. exfalso.
        pose proof (N.div_le_mono 10 k 10 ltac:(lia) H) as H1. rewrite N.div_same in H1 by lia. lia. }
      rewrite N.mod_small by lia. lia.
    + subst f1. rewrite IH.
      * unfold digit_char. cbn [append parse_dec String.length]. rewrite (parse_lin acc).
        rewrite digit_val by (apply N.mod_lt; lia). rewrite Nat2N.inj_succ, N.pow_succ_r'.
        pose proof (N.div_mod k 10 ltac:(lia)) as Hdm.
        set (P := (10 ^ N.of_nat (String.length acc))%N) in *.
        set (q := (k / 10)%N) in *. set (r := (k mod 10)%N) in *.
        rewrite Hdm. lia.
      * apply N.div_lt_upper_bound; [lia|]. rewrite <- N.pow_succ_r'. rewrite <- Nat2N.inj_succ. exact Hk.
Qed.

Lemma parse_string_of_N k : (k < LIM)%N -> parse_dec (string_of_N k) 0 = k.
Proof.
  intros Hk. unfold string_of_N. rewrite fuel_val.
  - cbn [String.length N.of_nat parse_dec]. rewrite N.pow_0_r. lia.
  - exact Hk.
Qed.

Lemma substring_all s : substring 0 (String.length s) s = s.
Proof. induction s as [|c t IH]; [reflexivity|]. cbn [String.length substring]. rewrite IH. reflexivity. Qed.

Lemma is_htmp_hname k : is_htmp (hname k) = true.
Proof. unfold is_htmp, hname. generalize (string_of_N k) as s. intros s. destruct s; reflexivity. Qed.

Lemma hname_suffix k : substring 5 (String.length (hname k) - 5) (hname k) = string_of_N k.
Proof.
  unfold hname. generalize (string_of_N k) as s. intros s. cbn [append String.length Nat.sub]. cbn [substring].
  rewrite Nat.sub_0_r. apply substring_all.
Qed.

Lemma hname_inj k k' : (k < LIM)%N -> (k' < LIM)%N -> hname k = hname k' -> k = k'.
Proof.
  intros Hk Hk' He. unfold hname in He. cbn [append] in He. injection He as He'.
  rewrite <- (parse_string_of_N k Hk), <- (parse_string_of_N k' Hk'). rewrite He'. reflexivity.
Qed.

Lemma eqb_htmp_diff a b : is_htmp a = false -> is_htmp b = true -> String.eqb a b = false.
Proof.
  intros Ha Hb. destruct (String.eqb_spec a b) as [He|He]; [|reflexivity].
  subst b. rewrite Ha in Hb. discriminate Hb.
Qed.

Section Shift.
  Variable n : N.

  (* "h_tmp<k>" |-> "h_tmp<k+n>" (canonical decimal spelling only); every other name is unchanged *)
  Definition shn (x : string) : string :=
    if is_htmp x then
      let k := parse_dec (substring 5 (String.length x - 5) x) 0 in
      if String.eqb (hname k) x then hname (k + n) else x
    else x.

  (* the names on which shn is injective: user names, and the temporaries whose shifted number is
     still below the rendering limit *)
  Definition gname (x : string) : Prop := is_htmp x = false \/ exists k, (k + n < LIM)%N /\ x = hname k.

  Lemma shn_user x : is_htmp x = false -> shn x = x.
  Proof. intros Hx. unfold shn. rewrite Hx. reflexivity. Qed.

  Lemma shn_hname k : (k < LIM)%N -> shn (hname k) = hname (k + n).
  Proof.
    intros Hk. unfold shn. rewrite is_htmp_hname. cbv zeta. rewrite hname_suffix.
    rewrite (parse_string_of_N k Hk). rewrite String.eqb_refl. reflexivity.
  Qed.

  Lemma is_htmp_shn x : is_htmp (shn x) = is_htmp x.
  Proof.
    unfold shn. destruct (is_htmp x) eqn:Hx; [|exact Hx]. cbv zeta.
    destruct (String.eqb _ x); [apply is_htmp_hname | exact Hx].
  Qed.

  Lemma gname_user x : is_htmp x = false -> gname x.
  Proof. intros Hx. left. exact Hx. Qed.

  Lemma gname_hname k : (k + n < LIM)%N -> gname (hname k).
  Proof. intros Hk. right. exists k. split; [exact Hk | reflexivity]. Qed.

  Lemma shn_eqb x y : gname x -> gname y -> String.eqb (shn x) (shn y) = String.eqb x y.
  Proof.
    intros [Hx|(k & Hk & Hx)] [Hy|(k' & Hk' & Hy)].
    - rewrite (shn_user x Hx), (shn_user y Hy). reflexivity.
    - subst y. rewrite (shn_user x Hx). rewrite shn_hname by lia.
      rewrite (eqb_htmp_diff _ _ Hx (is_htmp_hname _)). rewrite (eqb_htmp_diff _ _ Hx (is_htmp_hname _)). reflexivity.
    - subst x. rewrite (shn_user y Hy). rewrite shn_hname by lia.
      rewrite String.eqb_sym. rewrite (eqb_htmp_diff _ _ Hy (is_htmp_hname _)).
      rewrite String.eqb_sym. rewrite (eqb_htmp_diff _ _ Hy (is_htmp_hname _)). reflexivity.
    - subst x y. rewrite !shn_hname by lia.
      destruct (String.eqb_spec (hname k) (hname k')) as [He|He].
      + apply hname_inj in He; [|lia|lia]. subst k'. apply String.eqb_refl.
      + destruct (String.eqb_spec (hname (k + n)) (hname (k' + n))) as [He'|He']; [|reflexivity].
        apply hname_inj in He'; [|lia|lia]. assert (k = k') by lia. subst k'. contradiction He. reflexivity.
  Qed.

  (* comparison with a name that is no temporary: insensitive to the renaming, for EVERY other name *)
  Lemma shn_eqb_user a x : is_htmp a = false -> String.eqb a (shn x) = String.eqb a x.
  Proof.
    intros Ha. destruct (is_htmp x) eqn:Hx.
    - rewrite (eqb_htmp_diff a x Ha Hx). apply eqb_htmp_diff; [exact Ha|]. rewrite is_htmp_shn. exact Hx.
    - rewrite (shn_user x Hx). reflexivity.
  Qed.

  (* r<type> renames every local-variable name in a value of that type by shn; g<type> ("good") says that all its
     names are in the domain gname on which shn is injective, so that comparisons of names survive the renaming *)
  Fixpoint rpure (p : pure) : pure :=
    match p with
    | PVarL x => PVarL (shn x)
    | PLet x e b => PLet x (rpure e) (rpure b)
    | PUn o a => PUn o (rpure a)
    | PBin o a b => PBin o (rpure a) (rpure b)
    | PCmp o a b => PCmp o (rpure a) (rpure b)
    | PCast w f a => PCast w (rpure f) (rpure a)
    | PMsb a => PMsb (rpure a)
    | PNonZero a => PNonZero (rpure a)
    | PInv a => PInv (rpure a)
    | PAnd a b => PAnd (rpure a) (rpure b)
    | POr a b => POr (rpure a) (rpure b)
    | PIte c a b => PIte (rpure c) (rpure a) (rpure b)
    | PLoad w a => PLoad w (rpure a)
    | PSignExt sg w a => PSignExt sg w (rpure a)
    | PIncDec i a w => PIncDec i (rpure a) w
    | PApp h l => PApp h (map rpure l)
    | _ => p
    end.
  Definition rarg (a : arg) : arg := match a with APure p => APure (rpure p) | _ => a end.
  Fixpoint reff (e : effect) : effect :=
    match e with
    | ESetL x p => ESetL (shn x) (rpure p)
    | EWriteReg r p => EWriteReg r (rpure p)
    | EStore a v => EStore (rpure a) (rpure v)
    | ESeq a b => ESeq (reff a) (reff b)
    | EBranch c t f => EBranch (rpure c) (reff t) (reff f)
    | ERepeat c b => ERepeat (rpure c) (reff b)
    | RzIL.ECall f l => RzIL.ECall f (map rarg l)
    | EPlugin f l => EPlugin f (map rarg l)
    | ENop => ENop
    | EEmpty => EEmpty
    end.

  Definition rkind (k : kind) : kind :=
    match k with KVar x => KVar (shn x) | KTmp x g => KTmp (shn x) g | _ => k end.
  Definition rpval (p : pval) : pval := mkpv (rpure (pv_term p)) (pv_ty p) (rkind (pv_kind p)) (map shn (pv_tmps p)).
  Definition rleff (e : leff) : leff := mkle (reff (le_term e)) (map shn (le_tmps e)) (le_empty e).
  Definition ritem (i : item) : item :=
    match i with
    | IPure p => IPure (rpval p)
    | IEff e => IEff (rleff e)
    | IAsg e p => IAsg (rleff e) (rpval p)
    | IVoid e => IVoid (rleff e)
    | _ => i
    end.
  Definition rpend (p : pend) : pend :=
    mkpend (shn (pd_name p)) (map reff (pd_pre p)) (reff (pd_hyb p)) (reff (pd_set p)) (pd_exec_first p) (map shn (pd_tmps p)).
  Definition rvar (v : string * option vtype) : string * option vtype := (shn (fst v), snd v).
  Definition rstate (s : lstate) : lstate :=
    mkst (map rvar (st_vars s)) (st_regs s) (map rpend (st_pending s)) (n + st_hcount s)
         (map reff (st_imms s)) (st_nonempty s) (map shn (st_removed s)).

  Definition gkind (k : kind) : Prop := match k with KVar x | KTmp x _ => gname x | _ => True end.
  Definition gpval (p : pval) : Prop := gkind (pv_kind p) /\ Forall gname (pv_tmps p).
  Definition gleff (e : leff) : Prop := Forall gname (le_tmps e).
  Definition gitem (i : item) : Prop :=
    match i with
    | IPure p => gpval p
    | IEff e | IVoid e => gleff e
    | IAsg e p => gleff e /\ gpval p
    | _ => True
    end.
  Definition gpend (p : pend) : Prop := gname (pd_name p) /\ Forall gname (pd_tmps p).
  (* the prologue assignments of immediates are later looked up by name among the variables (tlower_info):
     their names are user names, which the renaming leaves alone *)
  Definition gimm (e : effect) : Prop := match e with ESetL x _ => is_htmp x = false | _ => True end.
  Definition gst (s : lstate) : Prop :=
    Forall gname (map fst (st_vars s)) /\ Forall gpend (st_pending s) /\ Forall gimm (st_imms s).

  (* the r and g of each type under one name, so that sim can be stated once for every result type *)
  Class Ren (A : Type) := { ren : A -> A; good : A -> Prop }.
  #[local] Instance Ren_unit : Ren unit := {| ren := fun x => x; good := fun _ => True |}.
  #[local] Instance Ren_bool : Ren bool := {| ren := fun x => x; good := fun _ => True |}.
  #[local] Instance Ren_Z : Ren Z := {| ren := fun x => x; good := fun _ => True |}.
  #[local] Instance Ren_vtype : Ren vtype := {| ren := fun x => x; good := fun _ => True |}.
  #[local] Instance Ren_string : Ren string := {| ren := shn; good := gname |}.
  #[local] Instance Ren_pure : Ren pure := {| ren := rpure; good := fun _ => True |}.
  #[local] Instance Ren_arg : Ren arg := {| ren := rarg; good := fun _ => True |}.
  #[local] Instance Ren_pval : Ren pval := {| ren := rpval; good := gpval |}.
  #[local] Instance Ren_leff : Ren leff := {| ren := rleff; good := gleff |}.
  #[local] Instance Ren_item : Ren item := {| ren := ritem; good := gitem |}.
  #[local] Instance Ren_lstate : Ren lstate := {| ren := rstate; good := gst |}.
  #[local] Instance Ren_prod {A B} `{Ren A} `{Ren B} : Ren (A * B) :=
    {| ren := fun p => (ren (fst p), ren (snd p)); good := fun p => good (fst p) /\ good (snd p) |}.
  #[local] Instance Ren_list {A} `{Ren A} : Ren (list A) := {| ren := map ren; good := Forall good |}.
  #[local] Instance Ren_option {A} `{Ren A} : Ren (option A) :=
    {| ren := option_map ren; good := fun o => match o with Some a => good a | None => True end |}.

  (* budget b: the run creates at most b temporaries; the run from the renamed state with renamed
     inputs (mn) mirrors the run from the original state (m0) *)
  Definition sim {A} `{Ren A} (b : N) (m0 mn : M A) : Prop :=
    forall s, gst s -> (n + st_hcount s + b <= LIM)%N ->
    match m0 s with
    | OK (a, s') => mn (rstate s) = OK (ren a, rstate s') /\ gst s' /\ (st_hcount s' <= st_hcount s + b)%N /\ good a
    | Err e => mn (rstate s) = Err e
    end.

  Lemma sim_ret {A} `{Ren A} b (a an : A) : an = ren a -> good a -> sim b (ret a) (ret an).
  Proof.
    intros He Hg s Hs Hb. unfold ret. subst an. split; [reflexivity|]. split; [exact Hs|]. split; [lia | exact Hg].
  Qed.

  Lemma sim_fail {A} `{Ren A} b msg : sim b (@fail A msg) (fail msg).
  Proof. intros s Hs Hb. reflexivity. Qed.

  Lemma sim_bind {A B} `{Ren A} `{Ren B} b1 b (m0 mn : M A) (f0 fn : A -> M B) :
    sim b1 m0 mn -> (b1 <= b)%N ->
    (forall a, good a -> sim (b - b1) (f0 a) (fn (ren a))) ->
    sim b (bind m0 f0) (bind mn fn).
  Proof.
    intros Hm Hle Hf s Hs Hb. unfold bind.
    specialize (Hm s Hs ltac:(lia)). destruct (m0 s) as [[a s1]|e].
    - destruct Hm as (Hmn & Hs1 & Hc1 & Ha). rewrite Hmn.
      specialize (Hf a Ha s1 Hs1 ltac:(lia)). destruct (f0 a s1) as [[r s2]|e2].
      + destruct Hf as (Hfn & Hs2 & Hc2 & Hr). split; [exact Hfn|]. split; [exact Hs2|]. split; [lia | exact Hr].
      + exact Hf.
    - rewrite Hm. reflexivity.
  Qed.

  Lemma sim_weaken {A} `{Ren A} b b' (m0 mn : M A) : sim b m0 mn -> (b <= b')%N -> sim b' m0 mn.
  Proof.
    intros Hm Hle s Hs Hb. specialize (Hm s Hs ltac:(lia)). destruct (m0 s) as [[a s1]|e]; [|exact Hm].
    destruct Hm as (H1 & H2 & H3 & H4). split; [exact H1|]. split; [exact H2|]. split; [lia | exact H4].
  Qed.

  Lemma sim_get b : sim b get get.
  Proof. intros s Hs Hb. unfold get. split; [reflexivity|]. split; [exact Hs|]. split; [lia | exact Hs]. Qed.

  Lemma sim_bind0 {A B} `{Ren A} `{Ren B} b (m0 mn : M A) (f0 fn : A -> M B) :
    sim 0 m0 mn -> (forall a, good a -> sim b (f0 a) (fn (ren a))) -> sim b (bind m0 f0) (bind mn fn).
  Proof.
    intros Hm Hf. apply (sim_bind 0 b m0 mn f0 fn Hm); [lia|]. intros a Ha. rewrite N.sub_0_r. apply Hf. exact Ha.
  Qed.

  Variable cfg : config.

  Lemma reff_seqn l : reff (seqn l) = seqn (map reff l).
  Proof.
    induction l as [|e t IH]; [reflexivity|]. destruct t as [|e' t']; [reflexivity|].
    change (seqn (e :: e' :: t')) with (ESeq e (seqn (e' :: t'))).
    change (map reff (e :: e' :: t')) with (reff e :: map reff (e' :: t')).
    cbn [reff]. rewrite IH. reflexivity.
  Qed.

  Lemma rp_cast t s nn x : cast_il_exec t s nn (rpure x) = rpure (cast_il_exec t s nn x).
  Proof. unfold cast_il_exec. destruct ((vt_sg t && vt_sg s) || (vt_sg s && (vt_w s <? vt_w t)%N && negb nn)); reflexivity. Qed.
  Ltac ifs := repeat match goal with |- context [if ?c then _ else _] => destruct c end; try reflexivity.
  Lemma rp_bitop op ty a b : bitop_il_exec op ty (rpure a) (rpure b) = rpure (bitop_il_exec op ty a b).
  Proof. unfold bitop_il_exec. ifs. Qed.
  Lemma rp_arith o ta tb a b : arith_il_exec o ta tb (rpure a) (rpure b) = rpure (arith_il_exec o ta tb a b).
  Proof. unfold arith_il_exec. ifs. Qed.
  Lemma rp_cmp op ta tb a b : cmp_il_exec op ta tb (rpure a) (rpure b) = rpure (cmp_il_exec op ta tb a b).
  Proof. unfold cmp_il_exec. ifs. Qed.
  Lemma rp_cond_wrap c x : cond_wrap c (rpure x) = rpure (cond_wrap c x).
  Proof. unfold cond_wrap. ifs. Qed.
  Lemma rp_boolop op ab bb a b : boolop_il_exec op ab bb (rpure a) (rpure b) = rpure (boolop_il_exec op ab bb a b).
  Proof. unfold boolop_il_exec. rewrite !rp_cond_wrap. ifs. Qed.

  Lemma is_boolop_ren p : is_boolop cfg (rpval p) = is_boolop cfg p.
  Proof. unfold is_boolop, rpval. cbn [pv_kind]. destruct (pv_kind p); reflexivity. Qed.
  Lemma cond_of_ren p : cond_of cfg (rpval p) = rpure (cond_of cfg p).
  Proof. unfold cond_of. rewrite is_boolop_ren. unfold rd, rpval. cbn [pv_term]. apply rp_cond_wrap. Qed.
  Lemma nonneg_const_ren p : nonneg_const (rpval p) = nonneg_const p.
  Proof. unfold nonneg_const, rpval. cbn [pv_kind]. destruct (pv_kind p); reflexivity. Qed.
  Lemma fold_cond_ren p : fold_cond (rpval p) = fold_cond p.
  Proof. unfold fold_cond, rpval. cbn [pv_kind]. destruct (pv_kind p); reflexivity. Qed.

  Lemma item_tmps_ren i : item_tmps (ritem i) = map shn (item_tmps i).
  Proof. destruct i; reflexivity. Qed.
  Lemma has_tree_ren l : has_tree (map ritem l) = has_tree l.
  Proof.
    unfold has_tree. induction l as [|i t IH]; [reflexivity|]. cbn [map existsb]. rewrite IH. destruct i; reflexivity.
  Qed.
  Lemma flat_map_item_tmps_ren l : flat_map item_tmps (map ritem l) = map shn (flat_map item_tmps l).
  Proof.
    induction l as [|i t IH]; [reflexivity|]. cbn [map flat_map]. rewrite IH, item_tmps_ren, map_app. reflexivity.
  Qed.
  Lemma good_item_tmps i : gitem i -> Forall gname (item_tmps i).
  Proof. destruct i; cbn [gitem item_tmps]; unfold gpval, gleff; intuition. Qed.
  Lemma good_flat_item_tmps l : Forall gitem l -> Forall gname (flat_map item_tmps l).
  Proof.
    induction 1 as [|i t Hi Ht IH]; [constructor|]. cbn [flat_map]. apply Forall_app. split; [apply good_item_tmps; exact Hi | exact IH].
  Qed.

  Lemma item_effects_ren items : flat_map item_effects (map ritem items) = map reff (flat_map item_effects items).
  Proof.
    induction items as [|i t IH]; [reflexivity|]. cbn [map flat_map]. rewrite IH, map_app. f_equal.
    destruct i; cbn [ritem item_effects]; try reflexivity; unfold rleff; cbn [le_empty le_term]; destruct (le_empty _); reflexivity.
  Qed.

  (* this proof, sim_resolve_hybrid, tfin and imms_ren write out lambdas and records of Lower.v (mk_sequence,
     resolve_hybrid, tlower_info) and are tied to them by conversion only: an edit there has to be repeated here *)
  Lemma mk_sequence_ren l : mk_sequence (map ritem l) = (rleff (fst (mk_sequence l)), snd (mk_sequence l)).
  Proof.
    unfold mk_sequence. cbn [fst snd]. unfold rleff. cbn [le_term le_tmps le_empty].
    set (fe := fun i : item => match i with IEff e | IVoid e | IAsg e _ => if le_empty e then [] else [le_term e] | _ => [] end).
    set (ft1 := fun i : item => match i with IEff _ | IVoid _ | IAsg _ _ => [] | _ => item_tmps i end).
    set (ft2 := fun i : item => match i with IEff e | IVoid e | IAsg e _ => if le_empty e then [] else le_tmps e | _ => [] end).
    assert (He : flat_map fe (map ritem l) = map reff (flat_map fe l)) by exact (item_effects_ren l).
    assert (H1 : flat_map ft1 (map ritem l) = map shn (flat_map ft1 l)).
    { clear He. induction l as [|i t IH]; [reflexivity|]. cbn [map flat_map]. rewrite IH, map_app. f_equal.
      destruct i; reflexivity. }
    assert (H2 : flat_map ft2 (map ritem l) = map shn (flat_map ft2 l)).
    { clear He H1. induction l as [|i t IH]; [reflexivity|]. cbn [map flat_map]. rewrite IH, map_app. f_equal.
      destruct i; cbn [ritem ft2]; try reflexivity; unfold rleff; cbn [le_empty le_tmps]; destruct (le_empty _); reflexivity. }
    rewrite He, H1, H2, reff_seqn, map_app.
    assert (H3 : existsb (fun i : item => match i with ITree _ => true | _ => false end) (map ritem l)
                 = existsb (fun i : item => match i with ITree _ => true | _ => false end) l).
    { exact (has_tree_ren l). }
    rewrite H3. destruct (flat_map fe l); reflexivity.
  Qed.

  Lemma good_mk_sequence l : Forall gitem l -> gleff (fst (mk_sequence l)).
  Proof.
    intros Hl. unfold mk_sequence, gleff. cbn [fst le_tmps]. apply Forall_app. split.
    - induction Hl as [|i t Hi Ht IH]; [constructor|]. cbn [flat_map]. apply Forall_app. split; [|exact IH].
      destruct i; cbn [gitem item_tmps] in *; unfold gpval in *; try constructor; intuition.
    - induction Hl as [|i t Hi Ht IH]; [constructor|]. cbn [flat_map]. apply Forall_app. split; [|exact IH].
      destruct i; cbn [gitem] in *; unfold gleff in *; try constructor; destruct (le_empty _); try constructor; intuition.
  Qed.

  Lemma lookup_rvar x l : gname x -> Forall gname (map fst l) -> lookup (shn x) (map rvar l) = lookup x l.
  Proof.
    intros Hx Hl. induction l as [|[y v] t IH]; [reflexivity|].
    cbn [map fst] in Hl. inversion Hl as [|y' t' Hy Ht]; subst y' t'.
    cbn [map rvar fst snd lookup]. rewrite (shn_eqb x y Hx Hy). rewrite (IH Ht). reflexivity.
  Qed.

  Lemma existsb_rvar x l : gname x -> Forall gname (map fst l) ->
    existsb (fun p => String.eqb (fst p) (shn x)) (map rvar l) = existsb (fun p => String.eqb (fst p) x) l.
  Proof.
    intros Hx Hl. induction l as [|[y v] t IH]; [reflexivity|].
    cbn [map fst] in Hl. inversion Hl as [|y' t' Hy Ht]; subst y' t'.
    cbn [map rvar fst snd existsb]. rewrite (shn_eqb y x Hy Hx). rewrite (IH Ht). reflexivity.
  Qed.

  Lemma map_set_rvar x (t : option vtype) l : gname x -> Forall gname (map fst l) ->
    map (fun p => if String.eqb (fst p) (shn x) then (shn x, t) else p) (map rvar l)
    = map rvar (map (fun p => if String.eqb (fst p) x then (x, t) else p) l).
  Proof.
    intros Hx Hl. induction l as [|[y v] r IH]; [reflexivity|].
    cbn [map fst] in Hl. inversion Hl as [|y' t' Hy Ht]; subst y' t'.
    cbn [map rvar fst snd]. rewrite (shn_eqb y x Hy Hx). rewrite (IH Ht).
    destruct (String.eqb y x); reflexivity.
  Qed.

  Lemma filter_rvar x l : gname x -> Forall gname (map fst l) ->
    filter (fun v => negb (String.eqb (fst v) (shn x))) (map rvar l)
    = map rvar (filter (fun v => negb (String.eqb (fst v) x)) l).
  Proof.
    intros Hx Hl. induction l as [|[y v] r IH]; [reflexivity|].
    cbn [map fst] in Hl. inversion Hl as [|y' t' Hy Ht]; subst y' t'.
    cbn [map rvar fst snd filter]. rewrite (shn_eqb y x Hy Hx). rewrite (IH Ht).
    destruct (String.eqb y x); reflexivity.
  Qed.

  Lemma good_map_set x (t : option vtype) l : gname x -> Forall gname (map fst l) ->
    Forall gname (map fst (map (fun p => if String.eqb (fst p) x then (x, t) else p) l)).
  Proof.
    intros Hx Hl. induction l as [|[y v] r IH]; [constructor|].
    cbn [map fst] in Hl. inversion Hl as [|y' t' Hy Ht]; subst y' t'.
    cbn [map fst]. constructor; [|exact (IH Ht)]. destruct (String.eqb y x); assumption.
  Qed.

  Lemma good_filter_vars (f : string * option vtype -> bool) l :
    Forall gname (map fst l) -> Forall gname (map fst (filter f l)).
  Proof.
    intros Hl. induction l as [|p r IH]; [constructor|].
    cbn [map] in Hl. inversion Hl as [|y' t' Hy Ht]; subst y' t'.
    cbn [filter]. destruct (f p); [cbn [map]; constructor; [exact Hy | exact (IH Ht)] | exact (IH Ht)].
  Qed.

  Lemma good_vars_app l x (t : option vtype) : Forall gname (map fst l) -> gname x -> Forall gname (map fst (l ++ [(x, t)])).
  Proof. intros Hl Hx. rewrite map_app. apply Forall_app. split; [exact Hl|]. constructor; [exact Hx | constructor]. Qed.

  Lemma pend_effect_ren p : pend_effect (rpend p) = reff (pend_effect p).
  Proof.
    unfold pend_effect, rpend. cbn [pd_pre pd_exec_first pd_hyb pd_set]. rewrite reff_seqn, map_app.
    destruct (pd_exec_first p); reflexivity.
  Qed.

  Lemma map_pend_effect_ren l : map pend_effect (map rpend l) = map reff (map pend_effect l).
  Proof. rewrite !map_map. apply map_ext. intros p. apply pend_effect_ren. Qed.

  Lemma flat_pd_tmps_ren l : flat_map pd_tmps (map rpend l) = map shn (flat_map pd_tmps l).
  Proof. induction l as [|p t IH]; [reflexivity|]. cbn [map flat_map]. rewrite IH, map_app. reflexivity. Qed.

  Lemma good_flat_pd_tmps l : Forall gpend l -> Forall gname (flat_map pd_tmps l).
  Proof.
    induction 1 as [|p t Hp Ht IH]; [constructor|]. cbn [flat_map]. apply Forall_app. split; [exact (proj2 Hp) | exact IH].
  Qed.

  Definition rpp (r : pend * list pend) : pend * list pend := (rpend (fst r), map rpend (snd r)).

  Lemma pop_pending_ren x l : gname x -> Forall gpend l ->
    pop_pending (shn x) (map rpend l) = option_map rpp (pop_pending x l).
  Proof.
    intros Hx Hl. induction Hl as [|p t Hp Ht IH]; [reflexivity|].
    cbn [map pop_pending]. unfold rpend at 1. cbn [pd_name]. rewrite (shn_eqb _ _ (proj1 Hp) Hx).
    destruct (String.eqb (pd_name p) x); [reflexivity|].
    rewrite IH. destruct (pop_pending x t) as [[q r]|]; reflexivity.
  Qed.

  Lemma good_pop_pending x l p r : Forall gpend l -> pop_pending x l = Some (p, r) -> gpend p /\ Forall gpend r.
  Proof.
    intros Hl. revert p r. induction Hl as [|q t Hq Ht IH]; intros p r Hp; [discriminate Hp|].
    cbn [pop_pending] in Hp. destruct (String.eqb (pd_name q) x).
    - inversion Hp; subst p r. split; assumption.
    - destruct (pop_pending x t) as [[q' r']|]; [|discriminate Hp]. inversion Hp; subst p r.
      destruct (IH q' r' eq_refl) as [H1 H2]. split; [exact H1 | constructor; assumption].
  Qed.

  Lemma collect_deps_ren names : Forall gname names -> forall l, Forall gpend l ->
    collect_deps (map shn names) (map rpend l)
    = (map rpend (fst (collect_deps names l)), map rpend (snd (collect_deps names l)))
    /\ Forall gpend (fst (collect_deps names l)) /\ Forall gpend (snd (collect_deps names l)).
  Proof.
    induction 1 as [|x t Hx Ht IH]; intros l Hl.
    - cbn [map collect_deps fst snd]. split; [reflexivity|]. split; [constructor | exact Hl].
    - cbn [map collect_deps]. rewrite (pop_pending_ren x l Hx Hl).
      destruct (pop_pending x l) as [[p r]|] eqn:Hp; cbn [option_map rpp fst snd].
      + destruct (good_pop_pending x l p r Hl Hp) as [Gp Gr].
        destruct (IH r Gr) as (E & G1 & G2). rewrite E.
        destruct (collect_deps t r) as [ds r']. cbn [fst snd map] in *. split; [reflexivity|].
        split; [constructor; assumption | exact G2].
      + exact (IH l Hl).
  Qed.

  Lemma lookup_rvar_user x l : is_htmp x = false -> Forall gname (map fst l) -> lookup x (map rvar l) = lookup x l.
  Proof. intros Hx Hl. pose proof (lookup_rvar x l (or_introl Hx) Hl) as H. rewrite (shn_user x Hx) in H. exact H. Qed.
  Lemma existsb_rvar_user x l : is_htmp x = false -> Forall gname (map fst l) ->
    existsb (fun p => String.eqb (fst p) x) (map rvar l) = existsb (fun p => String.eqb (fst p) x) l.
  Proof. intros Hx Hl. pose proof (existsb_rvar x l (or_introl Hx) Hl) as H. rewrite (shn_user x Hx) in H. exact H. Qed.

  (* The two places where the EPost arm of lower_expr writes the state in line (put), named so that each gets a sim
     lemma of its own like every other primitive (sim_mark_reg, sim_mark_var); post_reg_eq and post_var_eq are how
     the walk recognises them in the unfolded arm. *)
  Definition mark_reg (r : string) : M unit :=
    do s0 <- get;
    match lookup_reg_info r (st_regs s0) with
    | Some ri => put (mkst (st_vars s0) (update_reg_info r (mkreg (r_op ri) (set_hybrid_vt (r_ty ri)) (r_acc ri) (r_x ri) (r_pc ri) (r_new ri)) (st_regs s0))
                           (st_pending s0) (st_hcount s0) (st_imms s0) (st_nonempty s0) (st_removed s0))
    | None => ret tt
    end.
  Definition mark_var (x : string) : M unit :=
    do s0 <- get;
    match lookup x (st_vars s0) with
    | Some (Some t) => set_var x (Some (set_hybrid_vt t))
    | _ => ret tt
    end.
  Lemma post_reg_eq {B} r (K : M B) :
    bind get (fun s0 =>
      bind (match lookup_reg_info r (st_regs s0) with
            | Some ri => put (mkst (st_vars s0) (update_reg_info r (mkreg (r_op ri) (set_hybrid_vt (r_ty ri)) (r_acc ri) (r_x ri) (r_pc ri) (r_new ri)) (st_regs s0))
                                   (st_pending s0) (st_hcount s0) (st_imms s0) (st_nonempty s0) (st_removed s0))
            | None => ret tt
            end) (fun _ => K))
    = bind (mark_reg r) (fun _ => K).
  Proof. reflexivity. Qed.
  Lemma post_var_eq {B} x (K : M B) :
    bind get (fun s0 =>
      bind (match lookup x (st_vars s0) with
            | Some (Some t) => set_var x (Some (set_hybrid_vt t))
            | _ => ret tt
            end) (fun _ => K))
    = bind (mark_var x) (fun _ => K).
  Proof. reflexivity. Qed.

  (* The walk (sstep, repeated).  A goal  sim b m0 mn  is taken apart along the syntax of m0, which mn repeats on
     renamed values; rsimp first computes the renaming of constructors and projections on the n-side.
     - ret, fail: closed on the spot; the n-side value is the renamed one (req: rsimp, the commutation lemmas rren,
       shn x = x for user names shu, then a split of what is still matched on) and it is good (gsolve).
     - bind: sim_bind with the head simulated by shead, that is by an induction hypothesis or by the lemma about the
       head function, found in the hint database sim where each sim_* lemma is entered as it is proved (sarg closes
       its premises: the n-side arguments are the renamed ones, by req, and the arguments are good, by gsolve).
       The head's budget b1 (0, but hb of the sub-term for an induction hypothesis and 1 for resolve_hybrid) gives
       the side goal b1 <= b (sle) and leaves b - b1 for the continuation; the subtraction truncates, which is
       harmless because b1 <= b has just been shown.  The value bound is introduced with its goodness, which ghyp
       splits into its components under generated names, for gsolve to find by assumption (ghyps does the same
       after a case split); then srw applies the lemmas saying that the scrutinees to come do not see the renaming.
       A head that is a match or ret written in place has no lemma: it is walked itself, under sim_bind0.
     - match: both sides branch on the same scrutinee; an equation is kept for a kind, which gsolve needs.
     - a call in tail position: sim_weaken to the budget of the lemma found by shead.
     To replay a case of hshift_sim_all: intros, hcase (prep evaluates nh_* and hb_* on the constructor, splits the
     conjunction and feeds the parts to the induction hypotheses, so that these become plain sim statements for
     shead; then the constructor's arm is unfolded), then sstep by sstep.  When Lower.v gains a helper h, the walk
     stops at the first call of it with the goal  sim _ (h ..) (h ..): prove sim_h by unfolding h and walking (by
     sopen if h touches the state), and enter it with a Hint Extern of the form used below. *)
  Ltac rsimp :=
    cbn [ren good Ren_unit Ren_bool Ren_Z Ren_vtype Ren_string Ren_pure Ren_arg Ren_pval Ren_leff Ren_item
         Ren_lstate Ren_prod Ren_list Ren_option
         rpval rleff ritem rkind rarg rpure reff option_map fst snd map
         pv_term pv_ty pv_kind pv_tmps le_term le_tmps le_empty rd lit_pure
         rstate st_vars st_regs st_pending st_hcount st_imms st_nonempty st_removed
         gpval gleff gitem gkind].
  Ltac rsimp_in H :=
    cbn [ren good Ren_unit Ren_bool Ren_Z Ren_vtype Ren_string Ren_pure Ren_arg Ren_pval Ren_leff Ren_item
         Ren_lstate Ren_prod Ren_list Ren_option
         rpval rleff ritem rkind rarg rpure reff option_map fst snd map
         pv_term pv_ty pv_kind pv_tmps le_term le_tmps le_empty rd lit_pure
         rstate st_vars st_regs st_pending st_hcount st_imms st_nonempty st_removed
         gpval gleff gitem gkind] in H.

  (* a failing rewrite searches the whole goal up to conversion: each one is tried only where its pattern occurs *)
  Ltac srw :=
    repeat match goal with
           | |- context [is_boolop cfg (rpval ?p)] => rewrite (is_boolop_ren p)
           | |- context [fold_cond (rpval ?p)] => rewrite (fold_cond_ren p)
           | |- context [cond_of cfg (rpval ?p)] => rewrite (cond_of_ren p)
           | |- context [has_tree (map ritem ?l)] => rewrite (has_tree_ren l)
           | |- context [item_tmps (ritem ?i)] => rewrite (item_tmps_ren i)
           | |- context [flat_map item_tmps (map ritem ?l)] => rewrite (flat_map_item_tmps_ren l)
           | |- context [existsb _ (map rvar _)] => rewrite existsb_rvar_user by assumption
           | |- context [lookup _ (map rvar _)] => rewrite lookup_rvar_user by assumption
           end.
  Ltac shu := repeat match goal with H : is_htmp ?x = false |- context [shn ?x] => rewrite (shn_user x H) end.
  Ltac rren :=
    srw;
    repeat match goal with
           | |- context [nonneg_const (rpval ?p)] => rewrite (nonneg_const_ren p)
           | |- context [cast_il_exec _ _ _ (rpure _)] => rewrite rp_cast
           | |- context [bitop_il_exec _ _ (rpure _) (rpure _)] => rewrite rp_bitop
           | |- context [arith_il_exec _ _ _ (rpure _) (rpure _)] => rewrite rp_arith
           | |- context [cmp_il_exec _ _ _ (rpure _) (rpure _)] => rewrite rp_cmp
           | |- context [cond_wrap _ (rpure _)] => rewrite rp_cond_wrap
           | |- context [boolop_il_exec _ _ _ (rpure _) (rpure _)] => rewrite rp_boolop
           | |- context [map _ (_ ++ _)] => rewrite map_app
           end.
  Ltac req1 := rsimp; rren; unfold rpval, rleff; rsimp; rren; shu; try reflexivity.
  Ltac req :=
    rsimp; try reflexivity; req1;
    repeat match goal with |- context [fst ?p] => is_var p; destruct p end; req1;
    repeat (match goal with
            | |- context [match rkind ?x with _ => _ end] => destruct x eqn:?
            | |- context [match ?x with _ => _ end] => destruct x eqn:?
            end; req1).
  Ltac gsolve :=
    cbn [fst snd] in *;
    repeat match goal with |- context [if ?b then _ else _] => is_var b; destruct b end;
    rsimp;
    repeat (rsimp; unfold gpval, gleff; rsimp;
            repeat match goal with H : pv_kind ?a = _ |- context [pv_kind ?a] => rewrite H end;
            first [ exact I | assumption | (left; assumption) | (left; reflexivity)
                  | (apply good_item_tmps; assumption) | (apply good_flat_item_tmps; assumption) | apply Forall_nil | apply Forall_cons
                         | (apply Forall_app; split) | split ]).
  Ltac sarg := lazymatch goal with |- _ = _ => req | |- _ => gsolve end.
  Ltac ghyp H :=
    rsimp_in H; unfold gpval, gleff, gst in H; rsimp_in H;
    repeat match type of H with
           | _ /\ _ => let H1 := fresh H in let H2 := fresh H in destruct H as [H1 H2]; try ghyp H1; try ghyp H2
           end.

  Ltac ghyps :=
    repeat match goal with
           | H : gitem ?i |- _ => lazymatch i with _ _ => idtac end; ghyp H
           | H : Forall ?P (?x :: ?l) |- _ =>
               let H1 := fresh H in let H2 := fresh H in
               pose proof (Forall_inv H) as H1; pose proof (Forall_inv_tail H) as H2; clear H
           end.

  Create HintDb sim discriminated.
  Hint Extern 0 (sim _ get _) => apply (sim_get 0) : sim.
  Ltac shead := first [ eassumption | solve [ auto 1 with sim nocore ] ].

  (* the two fragments of EPost that update the state are simulated under their names *)
  Ltac sfold :=
    lazymatch goal with
    | |- sim _ (bind get (fun s0 => bind (match lookup_reg_info _ (st_regs s0) with _ => _ end) _)) _ => rewrite !post_reg_eq
    | |- sim _ (bind get (fun s0 => bind (match lookup _ (st_vars s0) with _ => _ end) _)) _ => rewrite !post_var_eq
    end.
  Ltac sle := first [ apply N.le_0_l | lia ].
  Ltac sstep :=
    rsimp; try sfold;
    lazymatch goal with
    | |- sim _ (ret _) (ret _) => apply sim_ret; [req | gsolve]
    | |- sim _ (fail _) (fail _) => apply sim_fail
    | |- sim ?b (bind ?m0 ?f0) (bind ?mn ?fn) =>
        first [ refine (sim_bind _ b m0 mn f0 fn _ _ _); [ shead | sle | ]
              | refine (sim_bind0 b m0 mn f0 fn _ _); [ solve [ repeat sstep ] | ] ];
        [ let a := fresh "a" in let Ha := fresh "Ha" in intros a Ha;
          lazymatch type of a with (_ * _)%type => destruct a as [? ?] | _ => idtac end;
          try ghyp Ha; rsimp; srw ]
    | |- sim _ (match mk_sequence ?l with _ => _ end) (match mk_sequence ?ln with _ => _ end) =>
        first [ (change ln with (map ritem l); rewrite (mk_sequence_ren l))
              | (let E := fresh "E" in assert (E : ln = map ritem l) by req; rewrite E; clear E;
                 rewrite (mk_sequence_ren l)) ];
        let G := fresh "Gseq" in
        assert (G : gleff (fst (mk_sequence l))) by (apply good_mk_sequence; gsolve);
        destruct (mk_sequence l) as [? ?]; cbn [fst snd] in G |- *; unfold gleff in G
    | |- sim _ (match (match ?y with _ => _ end) with _ => _ end) _ => destruct y eqn:?; ghyps
    | |- sim _ (match pv_kind ?p with _ => _ end) _ => destruct (pv_kind p) eqn:?; ghyps
    | |- sim _ (match ?x with _ => _ end) _ => destruct x; ghyps
    | |- sim _ _ _ => eapply sim_weaken; [ shead | sle ]
    end.
  Ltac ssteps := repeat sstep.

  Lemma sim_ty_eq a b : sim 0 (ty_eq a b) (ty_eq a b).
  Proof. unfold ty_eq. ssteps. Qed.
  Hint Extern 0 (sim _ (ty_eq _ _) _) => eapply sim_ty_eq; sarg : sim.
  Lemma sim_need_numeric t : sim 0 (need_numeric t) (need_numeric t).
  Proof. unfold need_numeric. ssteps. Qed.
  Hint Extern 0 (sim _ (need_numeric _) _) => eapply sim_need_numeric; sarg : sim.

  Lemma sim_init_a_cast t p pn : pn = rpval p -> gpval p -> sim 0 (init_a_cast cfg t p) (init_a_cast cfg t pn).
  Proof. intros He Hg. subst pn. ghyp Hg. unfold init_a_cast. ssteps. Qed.
  Hint Extern 0 (sim _ (init_a_cast _ _ _) _) => eapply sim_init_a_cast; sarg : sim.

  Lemma sim_promotion_cast p pn : pn = rpval p -> gpval p -> sim 0 (promotion_cast cfg p) (promotion_cast cfg pn).
  Proof. intros He Hg. subst pn. ghyp Hg. unfold promotion_cast. ssteps. Qed.
  Hint Extern 0 (sim _ (promotion_cast _ _) _) => eapply sim_promotion_cast; sarg : sim.

  Lemma sim_cast_operands imm a an c cn :
    an = rpval a -> cn = rpval c -> gpval a -> gpval c ->
    sim 0 (cast_operands cfg imm a c) (cast_operands cfg imm an cn).
  Proof. intros Ea Ec Ga Gc. subst an cn. ghyp Ga. ghyp Gc. unfold cast_operands. ssteps. Qed.
  Hint Extern 0 (sim _ (cast_operands _ _ _ _) _) => eapply sim_cast_operands; sarg : sim.

  Lemma sim_int_of_bool p pn : pn = rpval p -> gpval p -> sim 0 (int_of_bool cfg p) (int_of_bool cfg pn).
  Proof. intros He Hg. subst pn. ghyp Hg. unfold int_of_bool. ssteps. Qed.
  Hint Extern 0 (sim _ (int_of_bool _ _) _) => eapply sim_int_of_bool; sarg : sim.

  Lemma sim_addr_of p pn : pn = rpval p -> gpval p -> sim 0 (addr_of cfg p) (addr_of cfg pn).
  Proof. intros He Hg. subst pn. ghyp Hg. unfold addr_of. ssteps. Qed.
  Hint Extern 0 (sim _ (addr_of _ _) _) => eapply sim_addr_of; sarg : sim.

  Lemma sim_as_pure w i i_n : i_n = ritem i -> gitem i -> sim 0 (as_pure w i) (as_pure w i_n).
  Proof. intros He Hg. subst i_n. destruct i; cbn [as_pure ritem]; ghyp Hg; ssteps. Qed.
  Hint Extern 0 (sim _ (as_pure _ _) _) => eapply sim_as_pure; sarg : sim.

  Lemma simplify_unary_ren u a :
    match simplify_unary cfg u a with
    | Some m0 => exists mn, simplify_unary cfg u (rpval a) = Some mn /\ sim 0 m0 mn
    | None => simplify_unary cfg u (rpval a) = None
    end.
  Proof.
    unfold simplify_unary. rsimp. destruct (pv_kind a); rsimp; try reflexivity;
      destruct u; try reflexivity; (eexists; split; [reflexivity | ssteps]).
  Qed.

  Lemma sim_lower_unop u i i_n : i_n = ritem i -> gitem i -> sim 0 (lower_unop cfg u i) (lower_unop cfg u i_n).
  Proof.
    intros He Hg. subst i_n.
    destruct u; cbn [lower_unop]; try solve [ssteps]; sstep;
      (match goal with
       | |- sim _ (match simplify_unary cfg ?U ?a with _ => _ end) _ =>
           pose proof (simplify_unary_ren U a) as Hsu; destruct (simplify_unary cfg U a) as [m0|];
           [ destruct Hsu as (mn & Hsu & Hsim) | ]; rsimp; rewrite Hsu
       end); ssteps.
  Qed.
  Hint Extern 0 (sim _ (lower_unop _ _ _) _) => eapply sim_lower_unop; sarg : sim.

  (* the default arm of a match on two kinds is expanded into seventeen copies, which a walk through the match
     would simulate one by one: the match is simulated if its two arms are *)
  Lemma sim_lit_lit {A} `{Ren A} b (a c : pval) (X0 Xn : Z -> bool -> Z -> bool -> M A) (Y0 Yn : M A) :
    (forall va ba vb bb, sim b (X0 va ba vb bb) (Xn va ba vb bb)) -> sim b Y0 Yn ->
    sim b (match pv_kind a, pv_kind c with KLit va ba, KLit vb bb => X0 va ba vb bb | _, _ => Y0 end)
          (match pv_kind (rpval a), pv_kind (rpval c) with KLit va ba, KLit vb bb => Xn va ba vb bb | _, _ => Yn end).
  Proof. intros HX HY. cbn [rpval pv_kind]. destruct (pv_kind a), (pv_kind c); cbn [rkind]; auto. Qed.

  (* lower_binop has one body for each group of operators, in which the operator remains a variable *)
  Lemma sim_binop_groups {A} `{Ren A} (b : Ast.binop) (ar0 arn bi0 bin sh0 shn cm0 cmn lo0 lon : M A) :
    sim 0 ar0 arn -> sim 0 bi0 bin -> sim 0 sh0 shn -> sim 0 cm0 cmn -> sim 0 lo0 lon ->
    sim 0 (match b with
           | BAdd | BSub | BMul | BDiv | BMod => ar0
           | BAnd | BOr | BXor => bi0
           | BShl | BShr => sh0
           | BLt | BGt | BLe | BGe | BEq | BNe => cm0
           | BLAnd | BLOr => lo0
           end)
          (match b with
           | BAdd | BSub | BMul | BDiv | BMod => arn
           | BAnd | BOr | BXor => bin
           | BShl | BShr => shn
           | BLt | BGt | BLe | BGe | BEq | BNe => cmn
           | BLAnd | BLOr => lon
           end).
  Proof. intros. destruct b; assumption. Qed.

  Lemma sim_lower_binop b i j i_n j_n :
    i_n = ritem i -> j_n = ritem j -> gitem i -> gitem j -> sim 0 (lower_binop cfg b i j) (lower_binop cfg b i_n j_n).
  Proof.
    intros Hi Hj Gi Gj. subst i_n j_n. unfold lower_binop. apply sim_binop_groups.
    - sstep. sstep. apply sim_lit_lit; [intros va ba vb bb|]; ssteps.
    - ssteps.
    - ssteps.
    - sstep. sstep. apply sim_lit_lit; [intros va ba vb bb|]; ssteps.
    - ssteps.
  Qed.
  Hint Extern 0 (sim _ (lower_binop _ _ _ _) _) => eapply sim_lower_binop; sarg : sim.

  Lemma sim_resolve_one t : sim 0 (resolve_one t) (resolve_one t).
  Proof. destruct t; cbn [resolve_one]; ssteps. Qed.
  Hint Extern 0 (sim _ (resolve_one _) _) => eapply sim_resolve_one; sarg : sim.
  Lemma sim_resolve_cast_ty l : sim 0 (resolve_cast_ty l) (resolve_cast_ty l).
  Proof. unfold resolve_cast_ty. ssteps. Qed.
  Hint Extern 0 (sim _ (resolve_cast_ty _) _) => eapply sim_resolve_cast_ty; sarg : sim.
  Lemma sim_resolve_decl_ty l : sim 0 (resolve_decl_ty l) (resolve_decl_ty l).
  Proof.
    induction l as [|t l IH]; [cbn [resolve_decl_ty]; ssteps|].
    cbn [resolve_decl_ty]. destruct l as [|t' l']; [ssteps|]. destruct t; ssteps.
  Qed.
  Hint Extern 0 (sim _ (resolve_decl_ty _) _) => eapply sim_resolve_decl_ty; sarg : sim.
  Hint Extern 0 (sim _ (decl_type _) _) => eapply sim_resolve_decl_ty; sarg : sim.

  Lemma sim_lower_cast t i i_n : i_n = ritem i -> gitem i -> sim 0 (lower_cast cfg t i) (lower_cast cfg t i_n).
  Proof.
    intros He Hg. subst i_n. unfold lower_cast. ssteps.
  Qed.
  Hint Extern 0 (sim _ (lower_cast _ _ _) _) => eapply sim_lower_cast; sarg : sim.

  Lemma sim_compound_src a d dn s0 sn :
    dn = rpval d -> sn = rpval s0 -> gpval d -> gpval s0 ->
    sim 0 (compound_src cfg a d s0) (compound_src cfg a dn sn).
  Proof.
    intros Ed Es Gd Gs. subst dn sn. ghyp Gd. ghyp Gs. destruct a; cbn [compound_src]; ssteps.
  Qed.
  Hint Extern 0 (sim _ (compound_src _ _ _ _) _) => eapply sim_compound_src; sarg : sim.

  Lemma sim_lower_args items : Forall gitem items -> forall ptypes,
    sim 0 (lower_args cfg items ptypes) (lower_args cfg (map ritem items) ptypes).
  Proof.
    induction items as [|i it IH]; intros Hg ptypes.
    - destruct ptypes; cbn [lower_args map]; ssteps.
    - inversion Hg as [|i' it' Hi Hit]; subst i' it'. specialize (IH Hit).
      destruct ptypes as [|pt ptt]; cbn [lower_args map]; [ssteps|].
      eapply sim_bind0; [apply IH|]. intros [rest tm] Hr. ghyp Hr. rsimp.
      destruct (vt_ext pt).
      + destruct i as [p| | | | | |]; cbn [ritem]; ghyp Hi; ssteps.
      + destruct i as [p| | | | | |]; cbn [ritem]; ghyp Hi; ssteps.
  Qed.
  Hint Extern 0 (sim _ (lower_args _ _ _) _) => eapply sim_lower_args; sarg : sim.

  (* The primitives that read or write the state are simulated by hand.  sopen takes the state and the two
     hypotheses of sim and lays the primitive open; ustate computes the fields of a renamed state; the goal is then
     the conjunction of sim: the n-side result, gst of the new state, the counter, goodness of the value. *)
  Ltac ustate := unfold rstate; cbn [st_vars st_regs st_pending st_hcount st_imms st_nonempty st_removed].
  Ltac sopen := let s := fresh "s" in let Hs := fresh "Hs" in let Hb := fresh "Hb" in
                intros s Hs Hb; unfold bind, get, put, ret, fail; cbn [rstate st_vars st_regs st_pending st_hcount st_imms st_nonempty st_removed].

  Lemma sim_touch : sim 0 touch touch.
  Proof.
    intros s Hs Hb. unfold touch. split; [reflexivity|]. split; [exact Hs|]. split; [cbn [st_hcount]; lia | exact I].
  Qed.
  Hint Extern 0 (sim _ (touch) _) => eapply sim_touch; sarg : sim.

  Lemma sim_add_reg name ri : sim 0 (add_reg name ri) (add_reg name ri).
  Proof.
    unfold add_reg. sopen. destruct (lookup_reg_info name (st_regs s)) as [old|].
    - split; [reflexivity|]. split; [exact Hs|]. split; [lia|]. split; [exact I | constructor].
    - split; [reflexivity|]. split; [exact Hs|]. split; [cbn [st_hcount]; lia|]. split; [exact I | constructor].
  Qed.
  Hint Extern 0 (sim _ (add_reg _ _) _) => eapply sim_add_reg; sarg : sim.

  Lemma sim_lower_reg cls letters new : sim 0 (lower_reg cls letters new) (lower_reg cls letters new).
  Proof. unfold lower_reg. ssteps. Qed.
  Hint Extern 0 (sim _ (lower_reg _ _ _) _) => eapply sim_lower_reg; sarg : sim.

  Lemma sim_set_var x xn t : xn = shn x -> gname x -> sim 0 (set_var x t) (set_var xn t).
  Proof.
    intros He Hx. subst xn. unfold set_var. sopen. cbv zeta.
    destruct Hs as (Hv & Hp & Hi).
    rewrite (existsb_rvar x _ Hx Hv).
    destruct (existsb (fun p => String.eqb (fst p) x) (st_vars s)).
    - split; [ustate;
              rewrite (map_set_rvar x t _ Hx Hv); reflexivity|].
      split; [split; [apply good_map_set; assumption | split; assumption]|].
      split; [cbn [st_hcount]; lia | exact I].
    - split; [ustate;
              rewrite map_app; reflexivity|].
      split; [split; [apply good_vars_app; assumption | split; assumption]|].
      split; [cbn [st_hcount]; lia | exact I].
  Qed.
  Hint Extern 0 (sim _ (set_var _ _) _) => eapply sim_set_var; sarg : sim.

  (* The one place where a temporary is created, hence the only lemma with budget 1: the 0-run takes the name
     hname c from its counter c and the n-run hname (n + c), and these are related by the renaming exactly when
     shn (hname c) = hname (c + n), which needs c + n < LIM (shn_hname): this is where the bound of sim is used.
     The new name is good for the same reason, and every later comparison with it is covered by shn_eqb. *)
  Lemma sim_resolve_hybrid ty rd0 rdn hyb hybn ef gcc tmps tmpsn tree :
    rdn = rpure rd0 -> hybn = reff hyb -> tmpsn = map shn tmps -> Forall gname tmps ->
    sim 1 (resolve_hybrid ty rd0 hyb ef gcc tmps tree) (resolve_hybrid ty rdn hybn ef gcc tmpsn tree).
  Proof.
    intros Er Eh Et Gt. subst rdn hybn tmpsn. unfold resolve_hybrid.
    destruct (vt_void ty); [apply sim_ret; [reflexivity | exact Gt]|].
    unfold set_var. sopen. cbv zeta.
    change ("h_tmp" +++ string_of_N (st_hcount s)) with (hname (st_hcount s)).
    change ("h_tmp" +++ string_of_N (n + st_hcount s)) with (hname (n + st_hcount s)).
    assert (Hnm : gname (hname (st_hcount s))) by (apply gname_hname; lia).
    assert (Enm : hname (n + st_hcount s) = shn (hname (st_hcount s))).
    { rewrite shn_hname by lia. f_equal. lia. }
    rewrite Enm. set (nm := hname (st_hcount s)) in *.
    destruct Hs as (Hv & Hp & Hi).
    rewrite (existsb_rvar nm _ Hnm Hv).
    destruct (collect_deps_ren (nm :: tmps) (Forall_cons _ Hnm Gt) _ Hp) as (Ecd & Gd & Gr).
    change (shn nm :: map shn tmps) with (map shn (nm :: tmps)).
    rewrite Ecd.
    destruct (collect_deps (nm :: tmps) (st_pending s)) as [deps rest]. cbn [fst snd] in *.
    assert (Hfin :
      OK (IPure (mkpv (PVarL (shn nm)) (set_hybrid_vt ty) (KTmp (shn nm) gcc) [shn nm]),
          mkst (if existsb (fun p => String.eqb (fst p) nm) (st_vars s)
                then map (fun p => if String.eqb (fst p) (shn nm) then (shn nm, Some (set_hybrid_vt ty)) else p) (map rvar (st_vars s))
                else (map rvar (st_vars s) ++ [(shn nm, Some (set_hybrid_vt ty))])%list)
               (st_regs s)
               (map rpend rest ++
                [mkpend (shn nm) (map pend_effect (map rpend deps)) (reff hyb) (ESetL (shn nm) (rpure rd0)) ef
                        (flat_map pd_tmps (map rpend deps) ++ map shn (nm :: tmps))])%list
               (n + st_hcount s + 1) (map reff (st_imms s)) true (map shn (st_removed s)))
      = OK (ren (IPure (mkpv (PVarL nm) (set_hybrid_vt ty) (KTmp nm gcc) [nm])),
            rstate (mkst (if existsb (fun p => String.eqb (fst p) nm) (st_vars s)
                          then map (fun p => if String.eqb (fst p) nm then (nm, Some (set_hybrid_vt ty)) else p) (st_vars s)
                          else (st_vars s ++ [(nm, Some (set_hybrid_vt ty))])%list)
                         (st_regs s)
                         (rest ++ [mkpend nm (map pend_effect deps) hyb (ESetL nm rd0) ef (flat_map pd_tmps deps ++ nm :: tmps)])%list
                         (st_hcount s + 1) (st_imms s) true (st_removed s)))).
    { f_equal. f_equal. ustate.
      f_equal.
      - destruct (existsb (fun p => String.eqb (fst p) nm) (st_vars s)).
        + apply (map_set_rvar nm _ _ Hnm Hv).
        + rewrite map_app. reflexivity.
      - rewrite map_app. f_equal. cbn [map]. f_equal. unfold rpend. cbn [pd_name pd_pre pd_hyb pd_set pd_exec_first pd_tmps].
        rewrite map_pend_effect_ren, flat_pd_tmps_ren, map_app. reflexivity.
      - lia. }
    assert (Hgood :
      gst (mkst (if existsb (fun p => String.eqb (fst p) nm) (st_vars s)
                 then map (fun p => if String.eqb (fst p) nm then (nm, Some (set_hybrid_vt ty)) else p) (st_vars s)
                 else (st_vars s ++ [(nm, Some (set_hybrid_vt ty))])%list)
                (st_regs s)
                (rest ++ [mkpend nm (map pend_effect deps) hyb (ESetL nm rd0) ef (flat_map pd_tmps deps ++ nm :: tmps)])%list
                (st_hcount s + 1) (st_imms s) true (st_removed s))).
    { split; [|split]; cbn [st_vars st_pending st_imms].
      - destruct (existsb (fun p => String.eqb (fst p) nm) (st_vars s)); [apply good_map_set | apply good_vars_app]; assumption.
      - apply Forall_app. split; [exact Gr|]. constructor; [|constructor]. split; cbn [pd_name pd_tmps]; [exact Hnm|].
        apply Forall_app. split; [apply good_flat_pd_tmps; exact Gd | constructor; assumption].
      - exact Hi. }
    assert (Hitem : good (IPure (mkpv (PVarL nm) (set_hybrid_vt ty) (KTmp nm gcc) [nm]))).
    { split; [exact Hnm | constructor; [exact Hnm | constructor]]. }
    (* with hybrids pending, an operand without a name makes both runs fail alike *)
    destruct (st_pending s) as [|p0 pl]; cbn [map]; [|destruct tree; [reflexivity|]];
      (split; [exact Hfin|]; split; [exact Hgood|]; split; [cbn [st_hcount]; lia | exact Hitem]).
  Qed.
  Hint Extern 0 (sim _ (resolve_hybrid _ _ _ _ _ _ _) _) => eapply sim_resolve_hybrid; sarg : sim.

  Ltac runf := rsimp; unfold rpval, rleff; ustate; rsimp.

  Definition nh_operand (o : operand) : bool :=
    match o with OIdent x | OImm x => negb (is_htmp x) | _ => true end.

  Lemma sim_lower_operand o : nh_operand o = true -> sim 0 (lower_operand cfg o) (lower_operand cfg o).
  Proof.
    intros Hok. destruct o as [cls l|cls l|name new|name new|letter|v hex suf|name|tx|tx]; cbn [lower_operand nh_operand] in *;
      try apply negb_true_iff in Hok.
    - ssteps.
    - ssteps.
    - ssteps.
    - ssteps.
    - (* OImm *)
      sopen. destruct Hs as (Hv & Hp & Hi). rewrite (lookup_rvar_user letter _ Hok Hv).
      destruct (lookup letter (st_vars s)) as [[t|]|].
      + split; [runf; rewrite (shn_user _ Hok); reflexivity|].
        split; [repeat split; assumption|]. split; [lia|]. split; [left; exact Hok | constructor].
      + reflexivity.
      + split; [runf;
                rewrite !map_app; cbn [map reff rpure]; unfold rvar; cbn [fst snd]; rewrite !(shn_user _ Hok); reflexivity|].
        split; [split; [apply good_vars_app; [exact Hv | left; exact Hok] | split; [exact Hp|]]|].
        * cbn [st_imms]. apply Forall_app. split; [exact Hi | constructor; [exact Hok | constructor]].
        * split; [cbn [st_hcount]; lia|]. split; [left; exact Hok | constructor].
    - (* ONum *) ssteps.
    - (* OIdent *)
      destruct (lookup name (cfg_params cfg)); [ssteps|].
      sopen. destruct Hs as (Hv & Hp & Hi). rewrite (lookup_rvar_user name _ Hok Hv).
      pose proof Hok as Hok'. unfold is_htmp in Hok'. rewrite Hok'.
      destruct (lookup name (st_vars s)) as [[t|]|].
      + split; [runf; rewrite (shn_user _ Hok); reflexivity|].
        split; [repeat split; assumption|]. split; [lia|]. split; [left; exact Hok | constructor].
      + split; [runf; rewrite (shn_user _ Hok); reflexivity|].
        split; [repeat split; assumption|]. split; [lia|]. split; [left; exact Hok | constructor].
      + destruct (existsb (String.eqb name) ["EA"; "i"; "k"; "j"]).
        * split; [runf;
                  rewrite !map_app; cbn [map]; unfold rvar; cbn [fst snd]; rewrite !(shn_user _ Hok); reflexivity|].
          split; [split; [apply good_vars_app; [exact Hv | left; exact Hok] | split; assumption]|].
          split; [cbn [st_hcount]; lia|]. split; [left; exact Hok | constructor].
        * split; [reflexivity|]. split; [repeat split; assumption|]. split; [lia | exact I].
    - ssteps.
    - ssteps.
  Qed.

  Lemma sim_add_write_property name : sim 0 (add_write_property name) (add_write_property name).
  Proof.
    unfold add_write_property. sopen. destruct (lookup_reg_info name (st_regs s)) as [ri|].
    - split; [reflexivity|]. split; [exact Hs|]. split; [cbn [st_hcount]; lia | exact I].
    - split; [reflexivity|]. split; [exact Hs|]. split; [lia | exact I].
  Qed.
  Hint Extern 0 (sim _ (add_write_property _) _) => eapply sim_add_write_property; sarg : sim.

  Lemma sim_mk_assign d dn s0 sn : dn = rpval d -> sn = rpval s0 -> gpval d -> gpval s0 ->
    sim 0 (mk_assign d s0) (mk_assign dn sn).
  Proof. intros Ed Es Gd Gs. subst dn sn. ghyp Gd. ghyp Gs. unfold mk_assign. ssteps. Qed.
  Hint Extern 0 (sim _ (mk_assign _ _) _) => eapply sim_mk_assign; sarg : sim.

  Lemma is_htmp_rm x : is_htmp ("rm:" +++ x) = false.
  Proof. unfold is_htmp. cbn [append substring]. reflexivity. Qed.

  Lemma sim_rm_op p pn : pn = rpval p -> gpval p -> sim 0 (rm_op p) (rm_op pn).
  Proof.
    intros He Hg. subst pn. unfold rm_op. rsimp. destruct Hg as [Hk Ht].
    destruct (pv_kind p) as [| | |r|x|x g| | |] eqn:Hkind; rsimp; try solve [ssteps].
    - (* KReg *) sopen. destruct (vt_hyb (pv_ty p)); [reflexivity|].
      split; [ustate; cbn [map];
              rewrite (shn_user _ (is_htmp_rm r)); reflexivity|].
      split; [exact Hs|]. split; [cbn [st_hcount]; lia | exact I].
    - (* KVar *) sopen. destruct (vt_hyb (pv_ty p)); [reflexivity|]. destruct Hs as (Hv & Hp & Hi). cbn [gkind] in Hk.
      split; [ustate; cbn [map];
              rewrite (filter_rvar x _ Hk Hv); reflexivity|].
      split; [split; [apply good_filter_vars; exact Hv | split; assumption]|].
      split; [cbn [st_hcount]; lia | exact I].
    - (* KTmp *) sopen. destruct Hs as (Hv & Hp & Hi). cbn [gkind] in Hk.
      rewrite (pop_pending_ren x _ Hk Hp).
      destruct (pop_pending x (st_pending s)) as [[q rest]|] eqn:Hpop; cbn [option_map rpp fst snd]; [|reflexivity].
      destruct (good_pop_pending _ _ _ _ Hp Hpop) as [Gq Gr].
      split; [reflexivity|]. split; [split; [exact Hv | split; [exact Gr | exact Hi]]|].
      split; [cbn [st_hcount]; lia | exact I].
  Qed.
  Hint Extern 0 (sim _ (rm_op _) _) => eapply sim_rm_op; sarg : sim.

  Lemma sim_update_gcc_branch x xn c cn arm : xn = shn x -> cn = rpure c -> gname x ->
    sim 0 (update_gcc_branch x c arm) (update_gcc_branch xn cn arm).
  Proof.
    intros Ex Ec Hx. subst xn cn. unfold update_gcc_branch. sopen. destruct Hs as (Hv & Hp & Hi).
    split; [|split; [split; [exact Hv | split; [|exact Hi]]|split; [cbn [st_hcount]; lia | exact I]]].
    - ustate. do 2 f_equal.
      f_equal. clear Hb Hv Hi. induction Hp as [|p t Gp Gt IH]; [reflexivity|].
      cbn [map]. rewrite IH. f_equal. unfold rpend at 1. cbn [pd_name pd_pre pd_hyb pd_set pd_exec_first pd_tmps].
      rewrite (shn_eqb _ _ (proj1 Gp) Hx). destruct (String.eqb (pd_name p) x); [|reflexivity].
      unfold rpend. cbn [pd_name pd_pre pd_hyb pd_set pd_exec_first pd_tmps]. destruct arm; reflexivity.
    - cbn [st_pending]. clear Hb Hv Hi. induction Hp as [|p t Gp Gt IH]; [constructor|].
      cbn [map]. constructor; [|exact IH]. destruct (String.eqb (pd_name p) x); [|exact Gp].
      exact Gp.
  Qed.
  Hint Extern 0 (sim _ (update_gcc_branch _ _ _) _) => eapply sim_update_gcc_branch; sarg : sim.

  Lemma sim_chk_hybrid_dep e en sq tr : en = rleff e -> gleff e -> sim 0 (chk_hybrid_dep e sq tr) (chk_hybrid_dep en sq tr).
  Proof.
    intros Ee Ge. subst en. unfold chk_hybrid_dep. sopen. destruct Hs as (Hv & Hp & Hi).
    destruct (collect_deps_ren (le_tmps e) Ge _ Hp) as (Ecd & Gd & Gr).
    assert (Hsame : OK (rleff e, rstate s) = OK (ren e, rstate s) /\ gst s /\ (st_hcount s <= st_hcount s + 0)%N /\ good e).
    { split; [reflexivity|]. split; [repeat split; assumption|]. split; [lia | exact Ge]. }
    destruct (st_pending s) as [|p0 pl] eqn:Hpend; cbn [map]; [exact Hsame|].
    destruct tr; [reflexivity|].
    change (rpend p0 :: map rpend pl) with (map rpend (p0 :: pl)). cbn [le_tmps rleff]. rewrite Ecd.
    destruct (collect_deps (le_tmps e) (p0 :: pl)) as [deps rest]. cbn [fst snd] in *.
    destruct deps as [|d ds]; cbn [map]; [exact Hsame|].
    change (rpend d :: map rpend ds) with (map rpend (d :: ds)).
    split; [|split; [split; [exact Hv | split; [exact Gr | exact Hi]]|split; [cbn [st_hcount]; lia|]]].
    - f_equal. f_equal. rsimp. unfold rleff. cbn [le_term le_tmps le_empty].
      destruct sq; cbn [map flat_map]; unfold rpend at 2; cbn [pd_tmps];
        rewrite ?pend_effect_ren, ?map_pend_effect_ren, ?flat_pd_tmps_ren, ?reff_seqn, ?map_app; cbn [map];
        rewrite ?map_app; reflexivity.
    - rsimp. unfold gleff. cbn [le_tmps]. destruct sq; apply Forall_app; split;
        first [exact Ge | apply good_flat_pd_tmps; exact Gd].
  Qed.
  Hint Extern 0 (sim _ (chk_hybrid_dep _ _ _) _) => eapply sim_chk_hybrid_dep; sarg : sim.

  (* the test "would chk_hybrid_dep wrap?" has the same answer in both runs: the dependencies found under the
     renaming are the renamed dependencies (collect_deps_ren) *)
  Lemma sim_hyb_wrapped e en : en = rleff e -> gleff e -> sim 0 (hyb_wrapped e) (hyb_wrapped en).
  Proof.
    intros Ee Ge. subst en. unfold hyb_wrapped. sopen. destruct Hs as (Hv & Hp & Hi).
    destruct (collect_deps_ren (le_tmps e) Ge _ Hp) as (Ecd & _ & _).
    split; [|split; [repeat split; assumption | split; [lia | exact I]]].
    f_equal. f_equal. cbn [ren Ren_bool].
    destruct (st_pending s) as [|p0 pl] eqn:Hpend; cbn [map]; [reflexivity|].
    change (rpend p0 :: map rpend pl) with (map rpend (p0 :: pl)). cbn [le_tmps rleff]. rewrite Ecd.
    cbn [fst]. destruct (fst (collect_deps (le_tmps e) (p0 :: pl))); reflexivity.
  Qed.
  Hint Extern 0 (sim _ (hyb_wrapped _) _) => eapply sim_hyb_wrapped; sarg : sim.

  Lemma sim_mark_reg r : sim 0 (mark_reg r) (mark_reg r).
  Proof.
    unfold mark_reg. sopen. destruct (lookup_reg_info r (st_regs s)) as [ri|].
    - split; [reflexivity|]. split; [exact Hs|]. split; [cbn [st_hcount]; lia | exact I].
    - split; [reflexivity|]. split; [exact Hs|]. split; [lia | exact I].
  Qed.
  Hint Extern 0 (sim _ (mark_reg _) _) => eapply sim_mark_reg; sarg : sim.

  Lemma sim_mark_var x xn : xn = shn x -> gname x -> sim 0 (mark_var x) (mark_var xn).
  Proof.
    intros Ex Hx. subst xn. unfold mark_var. eapply sim_bind0; [apply sim_get|].
    intros a Ha. rsimp. cbn [rstate st_vars]. rewrite (lookup_rvar x _ Hx (proj1 Ha)).
    destruct (lookup x (st_vars a)) as [[t|]|]; ssteps.
  Qed.
  Hint Extern 0 (sim _ (mark_var _) _) => eapply sim_mark_var; sarg : sim.

  (* an upper bound on the number of temporaries a term creates: x++ / x--, calls, statement-expressions *)
  Fixpoint hb_expr (e : cexpr) : N :=
    match e with
    | EOp _ => 0
    | ECast _ a | EUn _ a => hb_expr a
    | EBin _ l r | EAssign _ l r | EComma l r => hb_expr l + hb_expr r
    | ECond c t f => hb_expr c + hb_expr t + hb_expr f
    | EPost _ a => 1 + hb_expr a
    | ECall _ args => 1 + hb_exprs args
    | EMacro _ args | ELoad _ _ args => hb_exprs args
    | EStmtExpr items last => 1 + hb_stmts items + hb_stmt last
    | EIndex _ _ | EMember _ _ | EPtrMember _ _ | ECallEmpty _ | ESizeofT _ | EOther _ => 0
    end%N
  with hb_exprs (l : cexprs) : N :=
    match l with ENil => 0 | ECons e t => hb_expr e + hb_exprs t end%N
  with hb_stmt (s : cstmt) : N :=
    match s with
    | SExpr e | SJump e => hb_expr e
    | SDecl _ _ init | SReturn init => match init with Some e => hb_expr e | None => 0 end
    | SIf c t e => hb_expr c + hb_stmt t + match e with Some x => hb_stmt x | None => 0 end
    | SFor i c st b => hb_stmt i + hb_stmt c + match st with Some x => hb_expr x | None => 0 end + hb_stmt b
    | SBlock l => hb_stmts l
    | SStore _ _ args => hb_exprs args
    | SLabel _ st | SCase st => hb_stmt st
    | _ => 0
    end%N
  with hb_stmts (l : cstmts) : N :=
    match l with SNil => 0 | SCons s t => hb_stmt s + hb_stmts t end%N.

  (* no identifier of the program (variable, immediate, declared name) starts with "h_tmp";
     every sub-term position of every constructor is descended into *)
  Fixpoint nh_expr (e : cexpr) : bool :=
    match e with
    | EOp o => nh_operand o
    | ECast _ a | EUn _ a | EPost _ a | EMember a _ | EPtrMember a _ | ECallEmpty a => nh_expr a
    | EBin _ l r | EAssign _ l r | EComma l r | EIndex l r => nh_expr l && nh_expr r
    | ECond c t f => nh_expr c && nh_expr t && nh_expr f
    | ECall _ args | EMacro _ args | ELoad _ _ args => nh_exprs args
    | EStmtExpr items last => nh_stmts items && nh_stmt last
    | ESizeofT _ | EOther _ => true
    end
  with nh_exprs (l : cexprs) : bool :=
    match l with ENil => true | ECons e t => nh_expr e && nh_exprs t end
  with nh_stmt (s : cstmt) : bool :=
    match s with
    | SExpr e | SJump e => nh_expr e
    | SDecl _ x init => negb (is_htmp x) && match init with Some e => nh_expr e | None => true end
    | SReturn init => match init with Some e => nh_expr e | None => true end
    | SIf c t e => nh_expr c && nh_stmt t && match e with Some x => nh_stmt x | None => true end
    | SFor i c st b => nh_stmt i && nh_stmt c && match st with Some x => nh_expr x | None => true end && nh_stmt b
    | SBlock l => nh_stmts l
    | SStore _ _ args => nh_exprs args
    | SWhile c b | SSwitch c b => nh_expr c && nh_stmt b
    | SDo b c => nh_stmt b && nh_expr c
    | SLabel _ st | SCase st => nh_stmt st
    | SEmpty | SDeclOther _ | SNop | SCancel | SGoto _ | SBreak | SContinue => true
    end
  with nh_stmts (l : cstmts) : bool :=
    match l with SNil => true | SCons s t => nh_stmt s && nh_stmts t end.

  Ltac prep :=
    cbn [nh_expr nh_exprs nh_stmt nh_stmts hb_expr hb_exprs hb_stmt hb_stmts opt_all] in *;
    repeat match goal with
           | H : _ && _ = true |- _ => apply andb_true_iff in H; destruct H
           | H : negb _ = true |- _ => apply negb_true_iff in H
           | H : ?P -> _, H' : ?P |- _ => specialize (H H')
           end.

  (* The lazy machine unfolds a constructor for next to nothing and leaves the recursive calls as raw fixpoints;
     these are folded back, one comparison each, where an induction hypothesis names them (left to the unifier,
     each would be compared on both sides and against every hypothesis).  cbn rebuilds the body it unfolds, which
     is dear, but folds the calls to the SAME function back without any comparison: it is used when the arm has
     such calls. *)
  Ltac hcase :=
    prep;
    lazymatch goal with
    | H : sim _ (?c cfg _) _ |- sim _ (?c cfg _) _ => cbn [lower_expr lower_exprs lower_stmt lower_stmts]
    | |- _ => lazy beta iota fix delta [lower_expr lower_exprs lower_stmt lower_stmts]
    end;
    repeat match goal with
           | H : sim _ (?c cfg ?x) _ |- context [?f ?x] =>
               is_fix f; let t := fresh "t" in set (t := f x); change (c cfg x) in (value of t); subst t
           end.

  Lemma hshift_sim_all :
    (forall e, nh_expr e = true -> sim (hb_expr e) (lower_expr cfg e) (lower_expr cfg e)) /\
    (forall l, nh_exprs l = true -> sim (hb_exprs l) (lower_exprs cfg l) (lower_exprs cfg l)) /\
    (forall s, nh_stmt s = true -> sim (hb_stmt s) (lower_stmt cfg s) (lower_stmt cfg s)) /\
    (forall l, nh_stmts l = true -> sim (hb_stmts l) (lower_stmts cfg l) (lower_stmts cfg l)).
  Proof.
    apply ast_full_ind.
    - (* EOp *) intros o Hnh. hcase. apply sim_lower_operand. exact Hnh.
    - (* ECast *) intros t e IHe Hnh. hcase. ssteps.
    - (* EUn *) intros u e IHe Hnh. hcase. ssteps.
    - (* EBin *) intros b l r IHl IHr Hnh. hcase. ssteps.
    - (* ECond *) intros c t e IHc IHt IHe Hnh. hcase. ssteps.
    - (* EAssign *) intros a l r IHl IHr Hnh. hcase. ssteps.
    - (* EPost *) intros i e IHe Hnh. hcase. ssteps.
    - (* ECall *) intros f args IHa Hnh. hcase. ssteps.
    - (* EMacro *) intros m args IHa Hnh. hcase. ssteps.
      (* the arm converts the arguments by a fixpoint written in place, which no sim lemma names: by induction here *)
      match goal with |- sim _ (bind (?go ?l) _) _ =>
        assert (Hgo : forall al, sim 0 (go al) (go (map rarg al))) end.
      { induction al as [|x t IH]; cbn [map].
        - cbv beta iota fix. sstep.
        - destruct x as [p|r|s]; cbn [rarg]; cbv beta iota fix; fold (map rarg t).
          + eapply sim_bind0; [exact IH|]. intros r Hr. sstep.
          + destruct r; try apply sim_fail. eapply sim_bind0; [exact IH|]. intros r Hr. sstep.
          + eapply sim_bind0; [exact IH|]. intros r Hr. sstep. }
      eapply sim_bind0; [apply Hgo|]. intros ps Hps. ssteps.
    - (* ELoad *) intros sg w args IHa Hnh. hcase. ssteps.
    - (* EStmtExpr *) intros items last IHi IHl Hnh. hcase. ssteps.
    - (* EComma *) intros l r IHl IHr Hnh. hcase. ssteps.
    - (* EIndex *) intros a i IHa IHi Hnh. hcase. ssteps.
    - (* EMember *) intros a f IHa Hnh. hcase. ssteps.
    - (* EPtrMember *) intros a f IHa Hnh. hcase. ssteps.
    - (* ECallEmpty *) intros a IHa Hnh. hcase. ssteps.
    - (* ESizeofT *) intros t Hnh. hcase. ssteps.
    - (* EOther *) intros w Hnh. hcase. ssteps.
    - (* ENil *) intros Hnh. hcase. ssteps.
    - (* ECons *) intros e t IHe IHt Hnh. hcase. ssteps.
    - (* SExpr *) intros e IHe Hnh. hcase. ssteps.
    - (* SEmpty *) intros Hnh. hcase. ssteps.
    - (* SDecl *) intros t x init IHi Hnh. destruct init as [e|]; hcase; ssteps.
    - (* SDeclOther *) intros w Hnh. hcase. ssteps.
    - (* SIf *) intros c t e IHc IHt IHe Hnh. destruct e as [e|]; hcase; ssteps.
    - (* SFor *) intros i c s b IHi IHc IHs IHb Hnh. destruct s as [st|]; hcase.
      + ssteps.
        (* the step expression is lowered inside the head of a bind: its budget has to be given *)
        eapply (sim_bind (hb_expr st)).
        { eapply sim_bind; [exact IHs | apply N.le_refl |]. intros x Hx.
          apply sim_ret; [reflexivity | constructor; [exact Hx | constructor]]. }
        { lia. }
        intros is_ His. cbv beta. ssteps.
      + ssteps.
    - (* SBlock: of a non-empty list the arm is lower_stmts itself, so the hypothesis is the goal up to unfolding *)
      intros l IHl Hnh. destruct l; [hcase; ssteps | exact (IHl Hnh)].
    - (* SStore *) intros sg w args IHa Hnh. hcase. ssteps.
    - (* SJump *) intros e IHe Hnh. hcase. ssteps.
    - (* SNop *) intros Hnh. hcase. ssteps.
    - (* SCancel *) intros Hnh. hcase. ssteps.
    - (* SReturn *) intros e IHe Hnh. destruct e as [e|]; hcase; ssteps.
    - (* SWhile *) intros c b IHc IHb Hnh. hcase. ssteps.
    - (* SDo *) intros b c IHb IHc Hnh. hcase. ssteps.
    - (* SSwitch *) intros c b IHc IHb Hnh. hcase. ssteps.
    - (* SLabel *) intros l s IHs Hnh. hcase. ssteps.
    - (* SCase *) intros s IHs Hnh. hcase. ssteps.
    - (* SGoto *) intros l Hnh. hcase. ssteps.
    - (* SBreak *) intros Hnh. hcase. ssteps.
    - (* SContinue *) intros Hnh. hcase. ssteps.
    - (* SNil *) intros Hnh. hcase. ssteps.
    - (* SCons *) intros s t IHs IHt Hnh. hcase. ssteps.
  Qed.

  Section Fin.
    Variable regs : list (string * reginfo).
    Variable removed : list string.

    Lemma is_htmp_regprefix x : is_htmp (reg_prefix +++ x) = false.
    Proof. unfold is_htmp, reg_prefix. cbn [append substring]. reflexivity. Qed.

    Lemma existsb_removed_ren x :
      existsb (String.eqb (reg_prefix +++ x)) (map shn removed) = existsb (String.eqb (reg_prefix +++ x)) removed.
    Proof.
      induction removed as [|y t IH]; [reflexivity|]. cbn [map existsb].
      rewrite (shn_eqb_user _ y (is_htmp_regprefix x)). rewrite IH. reflexivity.
    Qed.

    Lemma reg_read_ren x : reg_read regs (map shn removed) x = reg_read regs removed x.
    Proof. unfold reg_read. rewrite existsb_removed_ren. reflexivity. Qed.
    Lemma reg_handle_ren x : reg_handle regs (map shn removed) x = reg_handle regs removed x.
    Proof. unfold reg_handle. rewrite existsb_removed_ren. reflexivity. Qed.
    Lemma fin_op_ren r : fin_op regs (map shn removed) r = fin_op regs removed r.
    Proof. unfold fin_op. destruct r; try reflexivity. destruct (reg_name_of name); [apply reg_handle_ren | reflexivity]. Qed.
    Lemma rpure_reg_read x : rpure (reg_read regs removed x) = reg_read regs removed x.
    Proof.
      unfold reg_read. destruct (lookup_reg_info x regs); [|reflexivity].
      destruct (existsb _ removed); [reflexivity|]. destruct (write_only _); [reflexivity|]. destruct (r_pc _); reflexivity.
    Qed.

    Lemma fin_pure_ren p : fin_pure regs (map shn removed) (rpure p) = rpure (fin_pure regs removed p).
    Proof.
      induction p using SortSound.pure_ind'; cbn [rpure fin_pure]; try reflexivity; try congruence.
      - (* PApp *) f_equal. rewrite !map_map. induction H as [|x l Hx Hl IH]; [reflexivity|]. cbn [map]. rewrite Hx, IH. reflexivity.
      - (* PRaw *) destruct (reg_name_of s).
        + rewrite reg_read_ren. rewrite rpure_reg_read. reflexivity.
        + destruct (String.eqb (substring 0 4 s) "$op:"); reflexivity.
    Qed.

    Lemma fin_arg_ren a : fin_arg regs (map shn removed) (rarg a) = rarg (fin_arg regs removed a).
    Proof. destruct a; cbn [rarg fin_arg]; [rewrite fin_pure_ren | rewrite fin_op_ren |]; reflexivity. Qed.

    Lemma fin_eff_ren e : fin_eff regs (map shn removed) (reff e) = reff (fin_eff regs removed e).
    Proof.
      induction e; cbn [reff fin_eff]; rewrite ?fin_pure_ren, ?fin_op_ren; try congruence.
      - f_equal. rewrite !map_map. apply map_ext. intros a. apply fin_arg_ren.
      - f_equal. rewrite !map_map. apply map_ext. intros a. apply fin_arg_ren.
    Qed.
  End Fin.

  (* the part of tlower_info after the traversal *)
  Definition tfin (r : res (list item * lstate)) : res tinfo :=
    match r with
    | Err e => Err e
    | OK (items, s) =>
        let dropped := existsb (fun i => match i with ITree _ | ITok _ => true | _ => false end) items in
        if negb (st_nonempty s) then OK (mkti ENop (st_hcount s) 0 dropped []) else
        let left := map pend_effect (st_pending s) in
        let imms := map (fun e => match e with
                                  | ESetL x (PImm _ _ _) => if existsb (fun v => String.eqb (fst v) x) (st_vars s) then e else ESetL x (PRaw x)
                                  | _ => e end) (st_imms s) in
        let effs := (imms ++ left ++ flat_map item_effects items)%list in
        OK (mkti (fin_eff (st_regs s) (st_removed s) (seqn effs)) (st_hcount s) (List.length left) dropped (st_removed s))
    end.
  Lemma tlower_info_tfin c prog : tlower_info c prog = tfin (lower_stmts c prog (init_state c)).
  Proof. reflexivity. Qed.

  Definition rtinfo (i : tinfo) : tinfo :=
    mkti (reff (ti_eff i)) (n + ti_hcount i) (ti_leftover i) (ti_dropped i) (map shn (ti_removed i)).
  Definition rres (r : res tinfo) : res tinfo := match r with OK i => OK (rtinfo i) | Err e => Err e end.

  Lemma dropped_ren items :
    existsb (fun i => match i with ITree _ | ITok _ => true | _ => false end) (map ritem items)
    = existsb (fun i => match i with ITree _ | ITok _ => true | _ => false end) items.
  Proof. induction items as [|i t IH]; [reflexivity|]. cbn [map existsb]. rewrite IH. destruct i; reflexivity. Qed.

  Lemma imms_ren vars imms : Forall gname (map fst vars) -> Forall gimm imms ->
    map (fun e => match e with
                  | ESetL x (PImm _ _ _) => if existsb (fun v => String.eqb (fst v) x) (map rvar vars) then e else ESetL x (PRaw x)
                  | _ => e end) (map reff imms)
    = map reff (map (fun e => match e with
                              | ESetL x (PImm _ _ _) => if existsb (fun v => String.eqb (fst v) x) vars then e else ESetL x (PRaw x)
                              | _ => e end) imms).
  Proof.
    intros Hv Hi. induction Hi as [|e t He Ht IH]; [reflexivity|]. cbn [map]. rewrite IH. f_equal.
    destruct e; try reflexivity. cbn [gimm] in He.
    destruct p; cbn [reff rpure]; rewrite ?(shn_user x He); try reflexivity.
    rewrite (existsb_rvar_user x vars He Hv).
    destruct (existsb _ vars); cbn [reff rpure]; rewrite (shn_user x He); reflexivity.
  Qed.

  Lemma tfin_ren items s : gst s -> tfin (OK (map ritem items, rstate s)) = rres (tfin (OK (items, s))).
  Proof.
    intros (Hv & Hp & Hi). unfold tfin. cbv zeta. rewrite dropped_ren.
    ustate.
    destruct (negb (st_nonempty s)); [reflexivity|].
    cbn [rres]. unfold rtinfo. cbn [ti_eff ti_hcount ti_leftover ti_dropped ti_removed]. f_equal.
    rewrite !map_length. f_equal.
    rewrite (imms_ren _ _ Hv Hi), map_pend_effect_ren, item_effects_ren.
    rewrite <- !map_app. rewrite <- reff_seqn. apply fin_eff_ren.
  Qed.

  Definition init_at (h : N) : lstate := mkst [] [] [] h [] false [].

  Theorem hshift_from_init prog :
    nh_stmts prog = true -> (n + hb_stmts prog <= LIM)%N ->
    tfin (lower_stmts cfg prog (init_at n)) = rres (tfin (lower_stmts cfg prog (init_at 0))).
  Proof.
    intros Hnh Hb. destruct hshift_sim_all as (_ & _ & _ & Hss).
    pose proof (Hss prog Hnh (init_at 0)) as Hsim.
    assert (Hg : gst (init_at 0)) by (repeat split; constructor).
    specialize (Hsim Hg). cbn [init_at st_hcount] in Hsim. specialize (Hsim ltac:(lia)).
    assert (Er : rstate (init_at 0) = init_at n).
    { unfold init_at. ustate. cbn [map]. rewrite N.add_0_r. reflexivity. }
    fold (init_at 0) in Hsim. rewrite Er in Hsim.
    destruct (lower_stmts cfg prog (init_at 0)) as [[items s']|e].
    - destruct Hsim as (Hn & Gs & _ & _). rewrite Hn. cbn [ren Ren_list Ren_item]. apply tfin_ren. exact Gs.
    - rewrite Hsim. reflexivity.
  Qed.
End Shift.

Definition set_hstart (cfg : config) (h : N) : config :=
  mkcfg (cfg_fx cfg) (cfg_subs cfg) (cfg_macros cfg) (cfg_params cfg) (cfg_ret cfg) h.

(* side condition 1: no identifier of the program (variable / immediate / declared name, at any depth) starts with "h_tmp" *)
Definition no_htmp_ident (prog : cstmts) : bool := nh_stmts prog.
(* side condition 2 concerns the MODEL only: string_of_N renders 40 digits, so the names h_tmp<k> are
   pairwise distinct only below 10^40; hyb_bound counts the x++ / call / statement-expression nodes *)
Definition hyb_bound (prog : cstmts) : N := hb_stmts prog.

Definition shift (n : N) : string -> string := shn n.
Definition rename_pure (n : N) : pure -> pure := rpure n.
Definition rename_eff (n : N) : effect -> effect := reff n.
Definition rename_tinfo (n : N) : tinfo -> tinfo := rtinfo n.

Lemma shift_tmp n k : (k < LIM)%N -> shift n (hname k) = hname (k + n).
Proof. apply shn_hname. Qed.
Lemma shift_other n x : is_htmp x = false -> shift n x = x.
Proof. apply shn_user. Qed.
Lemma shift_injective n x y : gname n x -> gname n y -> shift n x = shift n y -> x = y.
Proof.
  intros Hx Hy He. pose proof (shn_eqb n x y Hx Hy) as Hb. unfold shift in He. rewrite He in Hb.
  rewrite String.eqb_refl in Hb. symmetry in Hb. apply String.eqb_eq in Hb. exact Hb.
Qed.

(* The traversal never reads cfg_hstart, so both equations hold by conversion; but the matches of lower_binop are
   expanded into some three thousand copies of the operand conversions, and comparing lower_binop at the two
   configurations unfolds every one of them.  lower_binop reads the configuration through five helpers only: with
   these abstracted, the two sides are one function applied to arguments that are convertible pairwise. *)
Lemma lower_binop_hstart cfg h : lower_binop (set_hstart cfg h) = lower_binop cfg.
Proof.
  let c := constr:(set_hstart cfg h) in
  let body := eval cbv delta [lower_binop] beta in (lower_binop c) in
  let F := eval pattern (fx c), (promotion_cast c), (cast_operands c), (int_of_bool c), (is_boolop c) in body in
  lazymatch F with
  | ?G _ _ _ _ _ =>
      change (G (fx c) (promotion_cast c) (cast_operands c) (int_of_bool c) (is_boolop c)
              = G (fx cfg) (promotion_cast cfg) (cast_operands cfg) (int_of_bool cfg) (is_boolop cfg))
  end.
  apply f_equal5; reflexivity.
Qed.

Lemma lower_stmts_hstart cfg h : lower_stmts (set_hstart cfg h) = lower_stmts cfg.
Proof. unfold lower_stmts. rewrite lower_binop_hstart. reflexivity. Qed.

Theorem hshift_tlower_info cfg n prog :
  no_htmp_ident prog = true -> (n + hyb_bound prog <= LIM)%N ->
  tlower_info (set_hstart cfg n) prog = rres n (tlower_info (set_hstart cfg 0) prog).
Proof.
  intros Hnh Hb. rewrite !tlower_info_tfin, !lower_stmts_hstart.
  change (init_state (set_hstart cfg n)) with (init_at n).
  change (init_state (set_hstart cfg 0)) with (init_at 0).
  apply hshift_from_init; assumption.
Qed.
Print Assumptions hshift_tlower_info.

Theorem hshift_error_iff cfg n prog msg :
  no_htmp_ident prog = true -> (n + hyb_bound prog <= LIM)%N ->
  (tlower_info (set_hstart cfg n) prog = Err msg <-> tlower_info (set_hstart cfg 0) prog = Err msg).
Proof.
  intros Hnh Hb. rewrite (hshift_tlower_info cfg n prog Hnh Hb).
  destruct (tlower_info (set_hstart cfg 0) prog) as [i|e]; cbn [rres]; split; intros H; try discriminate H; exact H.
Qed.

Theorem hshift_ok cfg n prog i0 :
  no_htmp_ident prog = true -> (n + hyb_bound prog <= LIM)%N ->
  tlower_info (set_hstart cfg 0) prog = OK i0 ->
  exists i_n, tlower_info (set_hstart cfg n) prog = OK i_n
    /\ ti_eff i_n = rename_eff n (ti_eff i0)
    /\ ti_hcount i_n = (n + ti_hcount i0)%N
    /\ ti_leftover i_n = ti_leftover i0
    /\ ti_dropped i_n = ti_dropped i0
    /\ ti_removed i_n = map (shift n) (ti_removed i0).
Proof.
  intros Hnh Hb H0. exists (rtinfo n i0). rewrite (hshift_tlower_info cfg n prog Hnh Hb), H0.
  repeat split.
Qed.
Print Assumptions hshift_ok.

Lemma pure_has_raw_ren n tag p : pure_has_raw tag (rpure n p) = pure_has_raw tag p.
Proof.
  induction p using SortSound.pure_ind'; cbn [rpure pure_has_raw]; try reflexivity; try congruence.
  induction H as [|x l Hx Hl IH]; [reflexivity|]. cbn [map existsb]. rewrite Hx, IH. reflexivity.
Qed.
Lemma eff_has_raw_ren n tag e : eff_has_raw tag (reff n e) = eff_has_raw tag e.
Proof.
  induction e; cbn [reff eff_has_raw]; rewrite ?pure_has_raw_ren; try congruence.
  all: induction args as [|a t IH]; [reflexivity|]; cbn [map existsb]; rewrite IH; destruct a; cbn [rarg]; rewrite ?pure_has_raw_ren; reflexivity.
Qed.

Definition rename_out (n : N) (r : res (effect * N)) : res (effect * N) :=
  match r with OK (e, h) => OK (rename_eff n e, (n + h)%N) | Err m => Err m end.

Theorem hshift_tlower cfg n prog :
  no_htmp_ident prog = true -> (n + hyb_bound prog <= LIM)%N ->
  tlower (set_hstart cfg n) prog = rename_out n (tlower (set_hstart cfg 0) prog).
Proof.
  intros Hnh Hb. unfold tlower. rewrite (hshift_tlower_info cfg n prog Hnh Hb).
  destruct (tlower_info (set_hstart cfg 0) prog) as [i|e]; reflexivity.
Qed.

Theorem hshift_tlower_checked cfg n prog :
  no_htmp_ident prog = true -> (n + hyb_bound prog <= LIM)%N ->
  tlower_checked (set_hstart cfg n) prog = rename_out n (tlower_checked (set_hstart cfg 0) prog).
Proof.
  intros Hnh Hb. unfold tlower_checked. rewrite (hshift_tlower cfg n prog Hnh Hb).
  destruct (tlower (set_hstart cfg 0) prog) as [[e h]|m]; cbn [rename_out]; [|reflexivity].
  unfold rename_eff. rewrite eff_has_raw_ren. destruct (eff_has_raw "$float" e); reflexivity.
Qed.
Print Assumptions hshift_tlower_checked.

Lemma cfg_insn_hstart h : cfg_insn h = set_hstart (cfg_insn 0) h.
Proof. reflexivity. Qed.

Corollary C14_history_independent h p :
  no_htmp_ident p = true -> (h + hyb_bound p <= LIM)%N ->
  tlower_info (cfg_insn h) p = rres h (tlower_info (cfg_insn 0) p).
Proof. rewrite (cfg_insn_hstart h). exact (hshift_tlower_info (cfg_insn 0) h p). Qed.
Print Assumptions C14_history_independent.

(* { RdV = RxV++ + ({ ReV = 1; RtV; }); } *)
Definition ex_prog : cstmts :=
  SCons (SExpr (EAssign AAssign (EOp (OReg "R" "d"))
           (EBin BAdd (EPost true (EOp (OReg "R" "x")))
                      (EStmtExpr (SCons (SExpr (EAssign AAssign (EOp (OReg "R" "e")) (EOp (ONum 1 false "")))) SNil)
                                 (SExpr (EOp (OReg "R" "t"))))))) SNil.
Definition ex_out (a b : string) (h : N) : tinfo :=
  mkti (ESeq (ESeq (ESetL a (PReg (RIsa "R" "x" false) false))
                   (EWriteReg (RIsa "R" "x" false) (PIncDec true (PReg (RIsa "R" "x" false) false) 32)))
             (ESeq (ESeq (EWriteReg (RIsa "R" "e" false) (PBv true 32 1))
                         (ESetL b (PReg (RIsa "R" "t" false) false)))
                   (EWriteReg (RIsa "R" "d" false) (PBin RzIL.BAdd (PVarL a) (PVarL b)))))
       h 0 false [].

Example ex_hstart_0 : tlower_info (cfg_insn 0) ex_prog = OK (ex_out "h_tmp0" "h_tmp1" 2).
Proof. vm_compute. reflexivity. Qed.
Example ex_hstart_7 : tlower_info (cfg_insn 7) ex_prog = OK (ex_out "h_tmp7" "h_tmp8" 9).
Proof. vm_compute. reflexivity. Qed.
(* related by the renaming: by evaluation ... *)
Example ex_related : tlower_info (cfg_insn 7) ex_prog = rres 7 (tlower_info (cfg_insn 0) ex_prog).
Proof. vm_compute. reflexivity. Qed.
Example ex_renamed : rename_tinfo 7 (ex_out "h_tmp0" "h_tmp1" 2) = ex_out "h_tmp7" "h_tmp8" 9.
Proof. vm_compute. reflexivity. Qed.
(* ... and by the theorem, for every start value of the counter *)
Example ex_side_conditions : no_htmp_ident ex_prog = true /\ hyb_bound ex_prog = 2%N.
Proof. vm_compute. split; reflexivity. Qed.
Example ex_related_thm h : (h + 2 <= LIM)%N -> tlower_info (cfg_insn h) ex_prog = OK (rename_tinfo h (ex_out "h_tmp0" "h_tmp1" 2)).
Proof.
  intros Hh. rewrite (C14_history_independent h ex_prog); [rewrite ex_hstart_0; reflexivity | reflexivity | exact Hh].
Qed.

(* { int NAME = 5; RdV = RxV++; ReV = NAME; } *)
Definition w_alias (nm : string) : cstmts :=
  SCons (SDecl [TS_int] nm (Some (EOp (ONum 5 false ""))))
 (SCons (SExpr (EAssign AAssign (EOp (OReg "R" "d")) (EPost true (EOp (OReg "R" "x")))))
 (SCons (SExpr (EAssign AAssign (EOp (OReg "R" "e")) (EOp (OIdent nm)))) SNil)).
Definition w_alias_out (user tmp : string) (h : N) : tinfo :=
  mkti (ESeq (ESetL user (PBv true 32 5))
       (ESeq (ESeq (ESeq (ESetL tmp (PReg (RIsa "R" "x" false) false))
                         (EWriteReg (RIsa "R" "x" false) (PIncDec true (PReg (RIsa "R" "x" false) false) 32)))
                   (EWriteReg (RIsa "R" "d" false) (PVarL tmp)))
             (EWriteReg (RIsa "R" "e" false) (PVarL user))))
       h 0 false [].

(* a user variable called h_tmp7: a fresh compiler keeps it apart from the temporary of x++ (ReV = 5); after
   seven earlier hybrids the temporary IS h_tmp7 and overwrites it (ReV = old RxV) *)
Example htmp_ident_refuted :
  no_htmp_ident (w_alias "h_tmp7") = false
  /\ tlower_info (cfg_insn 0) (w_alias "h_tmp7") = OK (w_alias_out "h_tmp7" "h_tmp0" 1)
  /\ tlower_info (cfg_insn 7) (w_alias "h_tmp7") = OK (w_alias_out "h_tmp7" "h_tmp7" 8)
  /\ tlower_info (cfg_insn 7) (w_alias "h_tmp7") <> rres 7 (tlower_info (cfg_insn 0) (w_alias "h_tmp7")).
Proof. vm_compute. repeat split; try reflexivity. intros H. discriminate H. Qed.
(* the mirror image: h_tmp0 collides in a fresh compiler and not after history *)
Example htmp_ident_refuted_fresh :
  no_htmp_ident (w_alias "h_tmp0") = false
  /\ tlower_info (cfg_insn 0) (w_alias "h_tmp0") = OK (w_alias_out "h_tmp0" "h_tmp0" 1)
  /\ tlower_info (cfg_insn 7) (w_alias "h_tmp0") = OK (w_alias_out "h_tmp0" "h_tmp7" 8)
  /\ tlower_info (cfg_insn 7) (w_alias "h_tmp0") <> rres 7 (tlower_info (cfg_insn 0) (w_alias "h_tmp0")).
Proof. vm_compute. repeat split; try reflexivity. intros H. discriminate H. Qed.
(* with an ordinary name the theorem applies *)
Example alias_ordinary_name h : (h + 1 <= LIM)%N ->
  tlower_info (cfg_insn h) (w_alias "v") = rres h (tlower_info (cfg_insn 0) (w_alias "v")).
Proof. intros Hh. apply C14_history_independent; [reflexivity | exact Hh]. Qed.

(* string_of_N (model/Types.v) has fuel 40: beyond 10^40 different counters are rendered alike, so the
   names of the model's temporaries are not injective there (Python's str(int) is) *)
Example lim_artefact : hname (10 ^ 40) = hname (2 * 10 ^ 40) /\ (10 ^ 40 =? 2 * 10 ^ 40)%N = false.
Proof. split; vm_compute; reflexivity. Qed.

(* The theorem is about the emitted TREE.  Its semantic reading ("the meaning does not depend on history")
   additionally needs the temporaries of the caller to be disjoint from the locals of the sub-routine bodies
   it calls, and those are compiled with FIXED names h_tmp0.. (each sub-routine body is compiled by a compiler of its own: known_findings.json, D5).  So the consistent renaming
   is not semantically neutral for callers of sub-routines:   RdV = RxV++ + clz32(RsV);
   the two trees are related by the renaming (the theorem applies), yet on the same initial state the one of a
   fresh compiler (its h_tmp0 is overwritten inside hex_clz32) disagrees with C and the one compiled after one
   earlier hybrid agrees. *)
Definition w_callee : cstmts :=
  SCons (SExpr (EAssign AAssign (EOp (OReg "R" "d"))
     (EBin BAdd (EPost true (EOp (OReg "R" "x"))) (ECall "clz32" (ECons (EOp (OReg "R" "s")) ENil))))) SNil.
Example callee_tmps_semantic_history :
  no_htmp_ident w_callee = true
  /\ tlower_info (cfg_insn 1) w_callee = rres 1 (tlower_info (cfg_insn 0) w_callee)
  /\ Witness.verdict_of (cfg_insn 0) w_callee 4 = Some Diff.Differ
  /\ Witness.verdict_of (cfg_insn 1) w_callee 4 = Some Diff.Agree.
Proof. vm_compute. repeat split; reflexivity. Qed.
