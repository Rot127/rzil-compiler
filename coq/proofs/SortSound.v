(* Soundness of the RzIL sort checker (sem/RzIL.v: sort_of, wf_effect) w.r.t. eval / exec.

   Pures
     sort_of_sound   env_ok G (locals s), env_ok lets lv, sort_of = Some t  ==>  eval = Some v of sort t
     sort_of_agree   with sort CONSISTENCY only (locals may be unassigned): if eval = Some v then v has sort t
     both are instances of sort_of_eval: eval gives a value of sort t, or fails because something is unassigned
     (app_sound: app_sort/app_sem agree on every plugin head.)

   Effects.  The plain statements of preservation and progress (naive_preservation_statement,
   naive_progress_statement), and the weaker naive_consistency_statement, are FALSE; their negations are proved
   at the end of the file.
   Reason: wf_effect is a "may" analysis.  It keeps one table for the whole instruction and threads it
   G -> then-arm -> else-arm (and through loop bodies), as rz_il_validate does.  So G' records locals that the
   executed path may never assign, and an else-arm may read a local only the then-arm sets.  Moreover
   env_ok G (locals s) says nothing about locals of s outside G, which the run-time check in ESetL sees.
   What IS true, and is proved:
     wf_effect_preservation      for any H extending G': consistent H (locals s) is an invariant of exec
                                 (any fuel, ERepeat included, calls opaque).  Instance H := G':
     wf_effect_sort_consistency  a local never holds a value of another sort than the one G' records
     exec_locals_mono            unconditionally, exec never drops a local nor changes its sort
                                 (=> exec_env_ok_stable: env_ok D is stable under exec)
     da_effect                   the "must" analysis that wf_effect is not (arms checked from the same D,
                                 result = bindings both arms agree on; loop bodies contribute nothing)
     da_effect_preservation      da_effect D e = Some D', env_ok D (locals s), exec = Some s' ==> env_ok D' (locals s')
                                 (every effect, every fuel, calls included)
     wf_effect_preservation_branch_free   naive_preservation_statement restricted to effects without EBranch/ERepeat
     wf_effect_progress          wf_effect (sorts) + da_effect (assignment) + consistent start state ==>
                                 exec succeeds for EVERY fuel >= depth e (loop-free, calls opaque)
     wf_effect_progress_init / _branch_free   corollaries: empty start state; straight-line code with wf_effect alone
   Tools: exec_ind (induction over successful runs), the inversion lemmas wf_*_inv / da_*_inv, wf_effect_mono,
   da_effect_mono, sort_of_weaken.  wf_effect_stable: G' is a fixed point of the checker. *)
From Coq Require Import ZArith NArith List Bool String Ascii Lia.
From RZ.lib Require Import BV.
From RZ.sem Require Import RzIL.
Import ListNotations.
Local Open Scope string_scope.
Local Open Scope Z_scope.

Definition app_heads : list string :=
  ["EXTRACT32"; "EXTRACT64"; "SEXTRACT64"; "DEPOSIT32"; "DEPOSIT64"; "BSWAP16"; "BSWAP32"; "BSWAP64"].

(* app_sort is a match on string literals, i.e. a decision tree over the bits of the characters of h.  The
   tree is walked once, a character at a time.  A branch on which app_sort is None closes by conversion to
   True, so no proof term is built for it (stating the fact as an implication from "= Some t" would cost a
   discrimination per branch).  Before the eight bits of a character are split, the sub-trees for the rest of
   the string are named, so that the case analyses are over small terms. *)
Ltac bit b := case b; clear b; cbv beta iota; try exact I.
Ltac walk h :=
  case h; clear h;
  [ try exact I
  | intros a h;
    repeat match goal with |- context [match h with EmptyString => ?x | String c r => @?f c r end] =>
      let S := fresh "S" in set (S := match h with EmptyString => x | String c r => f c r end) end;
    case a; clear a; intros b0 b1 b2 b3 b4 b5 b6 b7;
    bit b0; bit b1; bit b2; bit b3; bit b4; bit b5; bit b6; bit b7;
    repeat match goal with S := _ |- _ => first [clear S | unfold S; clear S] end;
    walk h ].

Lemma app_sort_heads h ss t : app_sort h ss = Some t -> In h app_heads.
Proof.
  intro H.
  enough (match app_sort h ss with Some _ => In h app_heads | None => True end) as Hin
    by (rewrite H in Hin; exact Hin).
  clear H. unfold app_sort. walk h.
  all: match goal with |- match ?o with _ => _ end => destruct o end; [|exact I].
  all: cbv [app_heads In]; auto 12.
Qed.

(* split H : app_sort "HEAD" (map sort_of_val vs) = Some t  down to the argument lists it accepts *)
Ltac leaf H :=
  repeat match type of H with
  | match map _ ?l with _ => _ end = _ => destruct l; cbn [map] in H; cbv beta iota in H; try discriminate H
  | match sort_of_val ?v with _ => _ end = _ => destruct v; cbn [sort_of_val] in H; cbv beta iota in H; try discriminate H
  | match ?x with _ => _ end = _ => is_var x; destruct x; cbv beta iota in H; try discriminate H
  end.

(* app_sort / app_sem agree: every head/argument-sort combination the checker accepts has a value *)
Lemma app_sound h vs t :
  app_sort h (map sort_of_val vs) = Some t -> exists v, app_sem h vs = Some v /\ sort_of_val v = t.
Proof.
  intro H. pose proof (app_sort_heads _ _ _ H) as Hin. unfold app_heads in Hin. cbn [In] in Hin.
  repeat (destruct Hin as [<- | Hin]); [.. | contradiction].
  all: unfold app_sort in H; cbv beta iota in H; leaf H.
  all: injection H as <-; eexists; split; reflexivity.
Qed.

(* The induction principle Coq derives for pure has no hypothesis for the arguments of PApp (a list of
   pures); this one has: Forall P l. *)
Lemma pure_ind' (P : pure -> Prop)
  (HBv : forall sg w v, P (PBv sg w v))
  (HBool : forall b, P (PBool b))
  (HVarL : forall x, P (PVarL x))
  (HVarLP : forall x, P (PVarLP x))
  (HLet : forall x e b, P e -> P b -> P (PLet x e b))
  (HReg : forall r n, P (PReg r n))
  (HImm : forall l sg w, P (PImm l sg w))
  (HPkt : P PPktAddr)
  (HParam : forall x, P (PParam x))
  (HUn : forall o a, P a -> P (PUn o a))
  (HBin : forall o a b, P a -> P b -> P (PBin o a b))
  (HCmp : forall o a b, P a -> P b -> P (PCmp o a b))
  (HCast : forall w f a, P f -> P a -> P (PCast w f a))
  (HMsb : forall a, P a -> P (PMsb a))
  (HNonZero : forall a, P a -> P (PNonZero a))
  (HInv : forall a, P a -> P (PInv a))
  (HAnd : forall a b, P a -> P b -> P (PAnd a b))
  (HOr : forall a b, P a -> P b -> P (POr a b))
  (HIte : forall c a b, P c -> P a -> P b -> P (PIte c a b))
  (HLoad : forall w a, P a -> P (PLoad w a))
  (HSignExt : forall sg w a, P a -> P (PSignExt sg w a))
  (HIncDec : forall i a w, P a -> P (PIncDec i a w))
  (HApp : forall h l, Forall P l -> P (PApp h l))
  (HRaw : forall s, P (PRaw s)) : forall p, P p.
Proof.
  fix IH 1.
  intros [sg w v|b|x|x|x e b|r n|l sg w| |x|o a|o a b|o a b|w f a|a|a|a|a b|a b|c a b|w a|sg w a|i a w|h l|s];
    [ apply HBv | apply HBool | apply HVarL | apply HVarLP | apply HLet | apply HReg | apply HImm | apply HPkt
    | apply HParam | apply HUn | apply HBin | apply HCmp | apply HCast | apply HMsb | apply HNonZero | apply HInv
    | apply HAnd | apply HOr | apply HIte | apply HLoad | apply HSignExt | apply HIncDec | apply HApp | apply HRaw ];
    try apply IH.
  induction l as [|x l IHl]; constructor; [apply IH | exact IHl].
Qed.

Lemma sort_eqb_eq a b : sort_eqb a b = true -> a = b.
Proof. destruct a, b; cbn; intro H; try discriminate; auto. apply N.eqb_eq in H. congruence. Qed.
Lemma sort_eqb_refl a : sort_eqb a a = true.
Proof. destruct a; cbn; auto. apply N.eqb_refl. Qed.
Lemma sort_bv_inv v w : sort_of_val v = SBv w -> exists x, v = VBv w x.
Proof. destruct v; cbn; intro H; inversion H; eauto. Qed.
Lemma sort_bool_inv v : sort_of_val v = SBool -> exists b, v = VB b.
Proof. destruct v; cbn; intro H; inversion H; eauto. Qed.
Lemma bin_sem_total o w x y : exists r, bin_sem o w x y = Some r.
Proof. destruct o; cbn [bin_sem]; try destruct (y =? 0); eauto. Qed.

Lemma lookup_cons {A} x y (v : A) l : lookup x ((y, v) :: l) = if String.eqb x y then Some v else lookup x l.
Proof. reflexivity. Qed.

(* every recorded name is bound, to a value of the recorded sort (definite assignment) *)
Definition env_ok (G : lenv) (l : list (string * val)) : Prop :=
  forall x t, lookup x G = Some t -> exists v, lookup x l = Some v /\ sort_of_val v = t.
(* whenever a recorded name is bound, the value has the recorded sort (sort consistency) *)
Definition consistent (G : lenv) (l : list (string * val)) : Prop :=
  forall x t v, lookup x G = Some t -> lookup x l = Some v -> sort_of_val v = t.
(* G' extends G *)
Definition ext (G G' : lenv) : Prop := forall x t, lookup x G = Some t -> lookup x G' = Some t.
(* every bound name is recorded with the sort of its value *)
Definition locals_in (G : lenv) (l : list (string * val)) : Prop :=
  forall x v, lookup x l = Some v -> lookup x G = Some (sort_of_val v).

Lemma env_ok_cons G l x t v : env_ok G l -> sort_of_val v = t -> env_ok ((x, t) :: G) ((x, v) :: l).
Proof.
  intros H Hv y u. rewrite !lookup_cons. destruct (String.eqb y x).
  - intro E; inversion E; subst; eauto.
  - apply H.
Qed.
Lemma consistent_cons G l x t v : consistent G l -> sort_of_val v = t -> consistent ((x, t) :: G) ((x, v) :: l).
Proof.
  intros H Hv y u w. rewrite !lookup_cons. destruct (String.eqb y x).
  - intros E1 E2; inversion E1; inversion E2; subst; auto.
  - apply H.
Qed.
Lemma env_ok_consistent G l : env_ok G l -> consistent G l.
Proof. intros H x t v Hx Hl. destruct (H _ _ Hx) as (v' & Hl' & Hs). congruence. Qed.
Lemma env_ok_nil l : env_ok [] l.
Proof. intros x t H; discriminate H. Qed.
Lemma consistent_nil_l l : consistent [] l.
Proof. intros x t v H; discriminate H. Qed.
Lemma consistent_nil_r G : consistent G [].
Proof. intros x t v _ H; discriminate H. Qed.
Lemma ext_refl G : ext G G.
Proof. intros x t H; exact H. Qed.
Lemma ext_trans G1 G2 G3 : ext G1 G2 -> ext G2 G3 -> ext G1 G3.
Proof. intros H1 H2 x t H; auto. Qed.
Lemma ext_cons_fresh G x t : lookup x G = None -> ext G ((x, t) :: G).
Proof.
  intros Hn y u Hy. rewrite lookup_cons. destruct (String.eqb y x) eqn:E; auto.
  apply String.eqb_eq in E. subst. congruence.
Qed.
Lemma consistent_ext G H l : ext G H -> consistent H l -> consistent G l.
Proof. intros He Hc x t v Hx Hl. eapply Hc; eauto. Qed.
Lemma env_ok_ext G H l : ext G H -> env_ok H l -> env_ok G l.
Proof. intros He Hc x t Hx. eapply Hc; eauto. Qed.
Lemma locals_in_consistent G H l : locals_in G l -> ext G H -> consistent H l.
Proof. intros Hi He x t v Hx Hl. apply Hi in Hl. apply He in Hl. congruence. Qed.

(* cases of  sort_of .. = Some _ : name every intermediate sort and drop the branches that give None *)
Ltac inv_sort Hs :=
  repeat match type of Hs with
  | match sort_of ?r ?G ?l ?p with _ => _ end = Some _ => destruct (sort_of r G l p) eqn:?; try discriminate Hs
  | match ?x with _ => _ end = Some _ => is_var x; destruct x; try discriminate Hs
  | (if ?c then _ else _) = Some _ => destruct c eqn:?; try discriminate Hs
  end.

(* the loop over the arguments of a PApp, as sort_of and eval run it: left to right, stopping at the first
   failure, the results handed to k in order *)
Definition app_go {A B} (f : pure -> option A) (k : list A -> option B) : list pure -> list A -> option B :=
  fix go l acc :=
    match l with
    | [] => k (rev acc)
    | x :: t => match f x with Some v => go t (v :: acc) | None => None end
    end.

Section Pures.
  Variable rw : regwidth.

  (* What the checker promises about evaluating a pure it gave sort t: a value of sort t, or no value at
     all, and the latter only when d fails.  d stands for "every recorded name is assigned" (under d the
     hypotheses below give env_ok).  At d := True this is soundness, at d := False it is sort agreement for
     whatever value there is; one induction serves both. *)
  Definition result_sorted (d : Prop) (t : sort) (o : option val) : Prop :=
    match o with Some v => sort_of_val v = t | None => ~ d end.

  Lemma lookup_sorted (d : Prop) G l x t :
    consistent G l -> (d -> env_ok G l) -> lookup x G = Some t -> result_sorted d t (lookup x l).
  Proof.
    intros Hc Hd Hx. destruct (lookup x l) as [v|] eqn:E; cbn [result_sorted].
    - exact (Hc x t v Hx E).
    - intro D. destruct (Hd D x t Hx) as (v & E' & _). congruence.
  Qed.

  Definition sorted_at (d : Prop) (G : lenv) (s : mstate) (p : pure) : Prop :=
    forall lets lv t, consistent lets lv -> (d -> env_ok lets lv) -> sort_of rw G lets p = Some t ->
      result_sorted d t (eval rw s lv p).

  Lemma app_go_sorted (d : Prop) G s h (l : list pure) lets lv :
    Forall (sorted_at d G s) l -> consistent lets lv -> (d -> env_ok lets lv) ->
    forall accs accv t, map sort_of_val accv = accs ->
      app_go (sort_of rw G lets) (app_sort h) l accs = Some t ->
      result_sorted d t (app_go (eval rw s lv) (app_sem h) l accv).
  Proof.
    intros HF Hc Hl. induction HF as [|x l Hx HF IH]; intros accs accv t Hacc Hs; cbn [app_go] in Hs |- *.
    - rewrite <- Hacc, <- map_rev in Hs. destruct (app_sound _ _ _ Hs) as (v & -> & Sv). exact Sv.
    - destruct (sort_of rw G lets x) as [tx|] eqn:Ex; [|discriminate Hs].
      specialize (Hx _ _ _ Hc Hl Ex). destruct (eval rw s lv x) as [vx|]; [|exact Hx].
      apply (IH (tx :: accs) (vx :: accv) t); [cbn [map]; congruence | exact Hs].
  Qed.

  (* feed every sub-term whose sort is known to its induction hypothesis: either evaluation fails there,
     and then as a whole (by conversion), or it gives a value of the shape its sort dictates *)
  Ltac use_ih Hc Hl :=
    repeat match goal with
    | IH : sorted_at _ ?G ?s ?p, E : sort_of _ ?G ?l ?p = Some ?t |- context [eval _ ?s ?lv ?p] =>
        specialize (IH _ _ _ Hc Hl E); destruct (eval rw s lv p) as [[]|]; [| |exact IH];
        cbn [result_sorted sort_of_val] in IH; try discriminate IH; try injection IH as ->
    end.

  Lemma sort_of_eval (d : Prop) G s :
    consistent G (locals s) -> (d -> env_ok G (locals s)) -> forall p, sorted_at d G s p.
  Proof.
    intros HG HGd. induction p using pure_ind'; intros lets lv t Hc Hl Hs; cbn [sort_of] in Hs; cbn [eval];
      try discriminate Hs;
      (* constants, and the operators that put no condition on the widths of their arguments *)
      try (inv_sort Hs; use_ih Hc Hl; injection Hs as <-; reflexivity).
    - (* PVarL *) exact (lookup_sorted d G _ x t HG HGd Hs).
    - (* PVarLP *) exact (lookup_sorted d lets lv x t Hc Hl Hs).
    - (* PLet *) destruct (sort_of rw G lets p1) as [t1|] eqn:E1; [|discriminate Hs].
      specialize (IHp1 _ _ _ Hc Hl E1). destruct (eval rw s lv p1) as [v1|]; [|exact IHp1].
      apply (IHp2 ((x, t1) :: lets) ((x, v1) :: lv) t); [apply consistent_cons; assumption | | exact Hs].
      intro D. apply env_ok_cons; auto.
    - (* PReg *) injection Hs as <-. unfold read_reg. destruct n; reflexivity.
    - (* PBin *) inv_sort Hs. use_ih Hc Hl.
      match goal with Hb : (_ || _)%bool = true |- _ => rewrite Hb end.
      match goal with |- context [bin_sem ?o ?w ?x ?y] => destruct (bin_sem_total o w x y) as [r ->] end.
      injection Hs as <-. reflexivity.
    - (* PCmp *) inv_sort Hs. use_ih Hc Hl.
      match goal with Hb : N.eqb _ _ = true |- _ => rewrite Hb end. injection Hs as <-. reflexivity.
    - (* PIte *) destruct (sort_of rw G lets p1) as [[|]|] eqn:E1; try discriminate Hs.
      destruct (sort_of rw G lets p2) as [ta|] eqn:E2; try discriminate Hs.
      destruct (sort_of rw G lets p3) as [tb|] eqn:E3; try discriminate Hs.
      destruct (sort_eqb ta tb) eqn:Ec; try discriminate Hs.
      apply sort_eqb_eq in Ec. subst tb. injection Hs as <-.
      specialize (IHp1 _ _ _ Hc Hl E1). destruct (eval rw s lv p1) as [[|cb]|]; try discriminate IHp1; [|exact IHp1].
      specialize (IHp2 _ _ _ Hc Hl E2). destruct (eval rw s lv p2) as [va|]; [|exact IHp2].
      specialize (IHp3 _ _ _ Hc Hl E3). destruct (eval rw s lv p3) as [vb|]; [|exact IHp3].
      cbn [result_sorted] in IHp2, IHp3 |- *. rewrite IHp2, IHp3, sort_eqb_refl. destruct cb; assumption.
    - (* PIncDec *) inv_sort Hs. use_ih Hc Hl.
      match goal with Hb : N.eqb _ _ = true |- _ => rewrite Hb end. injection Hs as <-. reflexivity.
    - (* PApp *) exact (app_go_sorted d G s h l lets lv H Hc Hl [] [] t eq_refl Hs).
  Qed.

  (* a well-sorted pure never gets stuck and evaluates to a value of its sort *)
  Theorem sort_of_sound : forall p G lets s lv t,
    env_ok G (locals s) -> env_ok lets lv -> sort_of rw G lets p = Some t ->
    exists v, eval rw s lv p = Some v /\ sort_of_val v = t.
  Proof.
    intros p G lets s lv t HG Hl Hs.
    pose proof (sort_of_eval True G s (env_ok_consistent _ _ HG) (fun _ => HG) p
                  lets lv t (env_ok_consistent _ _ Hl) (fun _ => Hl) Hs) as R.
    destruct (eval rw s lv p) as [v|]; [eauto | destruct (R I)].
  Qed.

  (* if a pure that the checker accepts evaluates at all (some read local may be unassigned), the value has
     the predicted sort; only sort consistency of the environments is needed *)
  Theorem sort_of_agree : forall p G lets s lv t v,
    consistent G (locals s) -> consistent lets lv -> sort_of rw G lets p = Some t -> eval rw s lv p = Some v ->
    sort_of_val v = t.
  Proof.
    intros p G lets s lv t v HG Hl Hs He.
    pose proof (sort_of_eval False G s HG (False_ind _) p lets lv t Hl (False_ind _) Hs) as R.
    rewrite He in R. exact R.
  Qed.

  Definition weak_at (G G' : lenv) (p : pure) : Prop :=
    forall lets t, sort_of rw G lets p = Some t -> sort_of rw G' lets p = Some t.

  Lemma app_go_weaken G G' h (l : list pure) lets :
    Forall (weak_at G G') l ->
    forall acc t, app_go (sort_of rw G lets) (app_sort h) l acc = Some t ->
                  app_go (sort_of rw G' lets) (app_sort h) l acc = Some t.
  Proof.
    intros HF. induction HF as [|x l Hx HF IH]; intros acc t Hs; [exact Hs|]. cbn [app_go] in Hs |- *.
    destruct (sort_of rw G lets x) as [tx|] eqn:Ex; [|discriminate Hs].
    rewrite (Hx _ _ Ex). apply IH. exact Hs.
  Qed.

  Ltac use_weak :=
    repeat match goal with
    | IH : weak_at ?G ?G' ?p, E : sort_of _ ?G ?l ?p = Some ?t |- _ => rewrite (IH _ _ E); clear IH
    end;
    repeat match goal with Hc : ?c = true |- context [if ?c then _ else _] => rewrite Hc end.

  Lemma sort_of_weaken G G' : ext G G' -> forall p lets t,
    sort_of rw G lets p = Some t -> sort_of rw G' lets p = Some t.
  Proof.
    intros Hext p. change (weak_at G G' p). induction p using pure_ind'; intros lets t Hs; cbn [sort_of] in Hs |- *;
      try exact Hs; try (inv_sort Hs; use_weak; exact Hs).
    - apply Hext; exact Hs.
    - destruct (sort_of rw G lets p1) as [t1|] eqn:E1; [|discriminate Hs].
      rewrite (IHp1 _ _ E1). apply IHp2. exact Hs.
    - exact (app_go_weaken G G' h l lets H [] t Hs).
  Qed.
End Pures.
Print Assumptions sort_of_sound.
Print Assumptions sort_of_agree.
Print Assumptions sort_of_weaken.

Lemma lookup_filter_some {A} (f : string * A -> bool) x l t :
  lookup x (filter f l) = Some t -> f (x, t) = true.
Proof.
  induction l as [|[y u] l IH]; cbn [filter]; [discriminate|].
  destruct (f (y, u)) eqn:Ef; [|exact IH].
  rewrite lookup_cons. destruct (String.eqb x y) eqn:E; [|exact IH].
  apply String.eqb_eq in E. intro H. inversion H; subst. exact Ef.
Qed.
Lemma lookup_filter_keep {A} (f : string * A -> bool) x l t :
  lookup x l = Some t -> f (x, t) = true -> lookup x (filter f l) = Some t.
Proof.
  intros H Hf. induction l as [|[y u] l IH]; [discriminate H|].
  rewrite lookup_cons in H. cbn [filter]. destruct (String.eqb x y) eqn:E.
  - apply String.eqb_eq in E. inversion H; subst. rewrite Hf, lookup_cons, String.eqb_refl. reflexivity.
  - destruct (f (y, u)); [rewrite lookup_cons, E|]; exact (IH H).
Qed.

(* the bindings on which two environments agree *)
Definition inter (D1 D2 : lenv) : lenv :=
  filter (fun xt => match lookup (fst xt) D1, lookup (fst xt) D2 with
                    | Some a, Some b => sort_eqb a (snd xt) && sort_eqb b (snd xt)
                    | _, _ => false end) D1.
Lemma inter_spec D1 D2 x t :
  lookup x (inter D1 D2) = Some t <-> lookup x D1 = Some t /\ lookup x D2 = Some t.
Proof.
  unfold inter. split.
  - intro H. apply lookup_filter_some in H. cbn [fst snd] in H.
    destruct (lookup x D1) as [a|]; [|discriminate H]. destruct (lookup x D2) as [b|]; [|discriminate H].
    apply andb_true_iff in H. destruct H as [Ha Hb]. apply sort_eqb_eq in Ha, Hb. subst. auto.
  - intros [H1 H2]. apply lookup_filter_keep; [exact H1|]. cbn [fst snd]. rewrite H1, H2, sort_eqb_refl. reflexivity.
Qed.

(* the fuel exec needs on a loop-free, call-free effect: the nesting depth *)
Fixpoint depth (e : effect) : nat :=
  match e with
  | ESeq a b | EBranch _ a b => S (Nat.max (depth a) (depth b))
  | ERepeat _ b => S (depth b)
  | _ => 1%nat
  end.
Fixpoint no_repeat (e : effect) : bool :=
  match e with
  | ESeq a b | EBranch _ a b => no_repeat a && no_repeat b
  | ERepeat _ _ => false
  | _ => true
  end.
(* no loop and no call at all: the decidable condition under which calls_opaque (below) holds for every subs *)
Fixpoint no_repeat_no_call (e : effect) : bool :=
  match e with
  | ESeq a b | EBranch _ a b => no_repeat_no_call a && no_repeat_no_call b
  | ERepeat _ _ | ECall _ _ => false
  | _ => true
  end.
(* neither EBranch nor ERepeat *)
Fixpoint branch_free (e : effect) : bool :=
  match e with
  | ESeq a b => branch_free a && branch_free b
  | EBranch _ _ _ | ERepeat _ _ => false
  | _ => true
  end.

Section Effects.
  Variable rw : regwidth.
  Variable subs : subenv.

  (* every call in e goes to a sub-routine the environment does not know (it is then an opaque event).
     wf_effect does not look into callee bodies, so nothing can be claimed about known callees. *)
  Fixpoint calls_opaque (e : effect) : Prop :=
    match e with
    | ESeq a b | EBranch _ a b => calls_opaque a /\ calls_opaque b
    | ERepeat _ b => calls_opaque b
    | ECall f _ => subs f = None
    | _ => True
    end.
  Lemma no_call_opaque e : no_repeat_no_call e = true -> calls_opaque e.
  Proof.
    induction e; cbn [no_repeat_no_call calls_opaque]; intro H; auto; try discriminate H;
      apply andb_true_iff in H; destruct H; auto.
  Qed.
  Lemma no_call_no_repeat e : no_repeat_no_call e = true -> no_repeat e = true.
  Proof.
    induction e; cbn [no_repeat_no_call no_repeat]; intro H; auto;
      apply andb_true_iff in H; destruct H; apply andb_true_iff; auto.
  Qed.

  Lemma wf_setl_inv G G' x p :
    wf_effect rw G (ESetL x p) = Some G' ->
    exists t, sort_of rw G [] p = Some t /\ lookup x G' = Some t /\ ext G G' /\
              (G' = G \/ (lookup x G = None /\ G' = (x, t) :: G)).
  Proof.
    cbn [wf_effect]. intro H. destruct (sort_of rw G [] p) as [t|]; [|discriminate H].
    exists t. split; [reflexivity|]. destruct (lookup x G) as [t0|] eqn:El.
    - destruct (sort_eqb t0 t) eqn:Ec; [|discriminate H]. apply sort_eqb_eq in Ec. inversion H; subst.
      split; [exact El|]. split; [apply ext_refl | auto].
    - inversion H; subst. split; [rewrite lookup_cons, String.eqb_refl; reflexivity|].
      split; [apply ext_cons_fresh; exact El | auto].
  Qed.
  Lemma wf_writereg_inv G G' r p :
    wf_effect rw G (EWriteReg r p) = Some G' -> G' = G /\ sort_of rw G [] p = Some (SBv (rw r)).
  Proof.
    cbn [wf_effect]. intro H. destruct (sort_of rw G [] p) as [[|w]|]; try discriminate H.
    destruct (N.eqb w (rw r)) eqn:E; [|discriminate H]. apply N.eqb_eq in E. inversion H; subst. auto.
  Qed.
  Lemma wf_store_inv G G' a v :
    wf_effect rw G (EStore a v) = Some G' ->
    G' = G /\ exists wa wv, sort_of rw G [] a = Some (SBv wa) /\ sort_of rw G [] v = Some (SBv wv).
  Proof.
    cbn [wf_effect]. intro H. destruct (sort_of rw G [] a) as [[|wa]|]; try discriminate H.
    destruct (sort_of rw G [] v) as [[|wv]|]; try discriminate H. inversion H; subst. eauto.
  Qed.
  Lemma wf_seq_inv G G' a b :
    wf_effect rw G (ESeq a b) = Some G' -> exists G1, wf_effect rw G a = Some G1 /\ wf_effect rw G1 b = Some G'.
  Proof. cbn [wf_effect]. intro H. destruct (wf_effect rw G a) as [G1|]; [eauto | discriminate H]. Qed.
  Lemma wf_branch_inv G G' c t f :
    wf_effect rw G (EBranch c t f) = Some G' ->
    sort_of rw G [] c = Some SBool /\ exists G1, wf_effect rw G t = Some G1 /\ wf_effect rw G1 f = Some G'.
  Proof.
    cbn [wf_effect]. intro H. destruct (sort_of rw G [] c) as [[|]|]; try discriminate H.
    destruct (wf_effect rw G t) as [G1|]; [eauto | discriminate H].
  Qed.
  Lemma wf_repeat_inv G G' c b :
    wf_effect rw G (ERepeat c b) = Some G' -> sort_of rw G [] c = Some SBool /\ wf_effect rw G b = Some G'.
  Proof. cbn [wf_effect]. intro H. destruct (sort_of rw G [] c) as [[|]|]; try discriminate H. auto. Qed.

  Lemma wf_effect_mono : forall e G G', wf_effect rw G e = Some G' -> ext G G'.
  Proof.
    induction e; intros G G' H; try solve [injection H as <-; apply ext_refl].
    - apply wf_setl_inv in H. destruct H as (t & _ & _ & He & _). exact He.
    - apply wf_writereg_inv in H. destruct H as [-> _]. apply ext_refl.
    - apply wf_store_inv in H. destruct H as [-> _]. apply ext_refl.
    - destruct (wf_seq_inv _ _ _ _ H) as (G1 & H1 & H2). eapply ext_trans; eauto.
    - destruct (wf_branch_inv _ _ _ _ _ H) as (_ & G1 & H1 & H2). eapply ext_trans; eauto.
    - destruct (wf_repeat_inv _ _ _ _ H) as [_ H1]. eauto.
  Qed.

  (* induction over successful runs: one rule for each way [exec] returns a state; the sub-runs come with
     their equations *)
  Lemma exec_ind (P : nat -> effect -> mstate -> mstate -> Prop)
    (HSetL : forall k x p s v, eval rw s [] p = Some v ->
       (forall old, lookup x (locals s) = Some old -> sort_of_val old = sort_of_val v) ->
       P (S k) (ESetL x p) s (set_local s x v))
    (HWriteReg : forall k r p s v, eval rw s [] p = Some (VBv (rw r) v) ->
       P (S k) (EWriteReg r p) s (set_reg s r v))
    (HStore : forall k a v s wa x w y, eval rw s [] a = Some (VBv wa x) -> eval rw s [] v = Some (VBv w y) ->
       P (S k) (EStore a v) s (set_mem s (write_bytes (mem s) x y (N.to_nat (w / 8)))))
    (HSeq : forall k a b s s1 s2, exec rw subs k a s = Some s1 -> exec rw subs k b s1 = Some s2 ->
       P k a s s1 -> P k b s1 s2 -> P (S k) (ESeq a b) s s2)
    (HBranch : forall k c t f b s s', eval rw s [] c = Some (VB b) ->
       exec rw subs k (if b then t else f) s = Some s' ->
       P k (if b then t else f) s s' -> P (S k) (EBranch c t f) s s')
    (HLoop : forall k c b s s1 s2, eval rw s [] c = Some (VB true) ->
       exec rw subs k b s = Some s1 -> exec rw subs k (ERepeat c b) s1 = Some s2 ->
       P k b s s1 -> P k (ERepeat c b) s1 s2 -> P (S k) (ERepeat c b) s s2)
    (HExit : forall k c b s, eval rw s [] c = Some (VB false) -> P (S k) (ERepeat c b) s s)
    (HNop : forall k s, P (S k) ENop s s)
    (HEmpty : forall k s, P (S k) EEmpty s s)
    (HCall : forall k f args ps body s s', subs f = Some (ps, body) ->
       exec rw subs k (subst_eff (bind_params ps args) body) s = Some s' ->
       P k (subst_eff (bind_params ps args) body) s s' -> P (S k) (ECall f args) s s')
    (HEvent : forall k f args s, subs f = None -> P (S k) (ECall f args) s (add_event s f args))
    (HPlugin : forall k h args s, P (S k) (EPlugin h args) s (add_event s h args)) :
    forall fuel e s s', exec rw subs fuel e s = Some s' -> P fuel e s s'.
  Proof.
    induction fuel as [|k IH]; intros e s s' He; [discriminate He|].
    destruct e; cbn [exec] in He.
    - destruct (eval rw s [] p) as [v|] eqn:Ev; [|discriminate He].
      destruct (lookup x (locals s)) as [old|] eqn:El; [destruct (sort_eqb _ _) eqn:Ec; [|discriminate He]|];
        injection He as <-; apply HSetL; try exact Ev; rewrite El; intros o Ho; [|discriminate Ho].
      injection Ho as <-. apply sort_eqb_eq. exact Ec.
    - destruct (eval rw s [] p) as [[w v|]|] eqn:Ev; try discriminate He.
      destruct (N.eqb w (rw r)) eqn:Ew; [|discriminate He]. apply N.eqb_eq in Ew. subst w.
      injection He as <-. apply HWriteReg; exact Ev.
    - destruct (eval rw s [] addr) as [[wa xa|]|] eqn:Ea; try discriminate He.
      destruct (eval rw s [] v) as [[wv xv|]|] eqn:Ev; try discriminate He.
      injection He as <-. eapply HStore; eassumption.
    - destruct (exec rw subs k e1 s) as [s1|] eqn:E1; [|discriminate He]. eapply HSeq; eauto.
    - destruct (eval rw s [] c) as [[|b]|] eqn:Ec; try discriminate He.
      apply (HBranch k c e1 e2 b); [exact Ec | | apply IH]; destruct b; exact He.
    - destruct (eval rw s [] c) as [[|[|]]|] eqn:Ec; try discriminate He.
      + destruct (exec rw subs k e s) as [s1|] eqn:E1; [|discriminate He]. eapply HLoop; eauto.
      + injection He as <-. apply HExit; exact Ec.
    - injection He as <-. apply HNop.
    - injection He as <-. apply HEmpty.
    - destruct (subs f) as [[ps body]|] eqn:Ef; [eapply HCall; eauto|].
      injection He as <-. apply HEvent; exact Ef.
    - injection He as <-. apply HPlugin.
  Qed.

  (* the machine never forgets a local nor changes its sort (unconditionally: ESetL checks the sort at run
     time) *)
  Lemma exec_locals_mono : forall fuel e s s', exec rw subs fuel e s = Some s' ->
    forall x v, lookup x (locals s) = Some v ->
    exists v', lookup x (locals s') = Some v' /\ sort_of_val v' = sort_of_val v.
  Proof.
    apply (exec_ind (fun _ _ s s' => forall x v, lookup x (locals s) = Some v ->
                       exists v', lookup x (locals s') = Some v' /\ sort_of_val v' = sort_of_val v));
      try solve [intros; eauto].
    - intros k x p s v _ Hold y u Hy. cbn [locals set_local]. rewrite lookup_cons.
      destruct (String.eqb y x) eqn:E; [|eauto]. apply String.eqb_eq in E. subst y.
      exists v. split; [reflexivity | symmetry; exact (Hold _ Hy)].
    - intros k a b s s1 s2 _ _ IH1 IH2 x v Hx. destruct (IH1 _ _ Hx) as (v1 & Hx1 & S1).
      destruct (IH2 _ _ Hx1) as (v2 & Hx2 & S2). exists v2. split; [exact Hx2 | congruence].
    - intros k c b s s1 s2 _ _ _ IH1 IH2 x v Hx. destruct (IH1 _ _ Hx) as (v1 & Hx1 & S1).
      destruct (IH2 _ _ Hx1) as (v2 & Hx2 & S2). exists v2. split; [exact Hx2 | congruence].
  Qed.

  Corollary exec_env_ok_stable fuel e s s' D :
    exec rw subs fuel e s = Some s' -> env_ok D (locals s) -> env_ok D (locals s').
  Proof.
    intros He Hok x t Hx. destruct (Hok _ _ Hx) as (v & Hv & Sv).
    destruct (exec_locals_mono _ _ _ _ He _ _ Hv) as (v' & Hv' & Sv'). exists v'. split; [exact Hv' | congruence].
  Qed.

  Lemma consistent_set H l x v :
    consistent H l -> (forall t, lookup x H = Some t -> sort_of_val v = t) -> consistent H ((x, v) :: l).
  Proof.
    intros Hc Hx y t v' Hy. rewrite lookup_cons. destruct (String.eqb y x) eqn:E.
    - apply String.eqb_eq in E. subst. intro Hv. inversion Hv; subst. auto.
    - eauto.
  Qed.
  Lemma env_ok_set D l x v :
    env_ok D l -> (forall t, lookup x D = Some t -> sort_of_val v = t) -> env_ok D ((x, v) :: l).
  Proof.
    intros Hc Hx y t Hy. rewrite lookup_cons. destruct (String.eqb y x) eqn:E.
    - apply String.eqb_eq in E. subst. eauto.
    - eauto.
  Qed.

  (* the value an accepted assignment writes has the sort that any extension of the result records for x *)
  Lemma setl_sort G G' H x p s v :
    wf_effect rw G (ESetL x p) = Some G' -> ext G' H -> consistent H (locals s) -> eval rw s [] p = Some v ->
    forall t, lookup x H = Some t -> sort_of_val v = t.
  Proof.
    intros Hwf Hext Hc Ev t Ht. destruct (wf_setl_inv _ _ _ _ Hwf) as (t0 & Es & Hx & HGG & _).
    apply Hext in Hx. rewrite Hx in Ht. injection Ht as <-.
    eapply (sort_of_agree rw p G [] s [] t0 v); eauto using consistent_nil_l.
    eapply consistent_ext; [|exact Hc]. eapply ext_trans; eauto.
  Qed.

  (* Preservation of sort consistency.
     H is any environment extending the checker's result; the invariant is stated against H so that it is
     stable along the whole run (wf_effect threads G through arms that are not executed, so G itself is not
     an invariant of the state).  ERepeat is covered (any fuel); calls must be opaque. *)
  Theorem wf_effect_preservation : forall fuel e G G' H s s',
    wf_effect rw G e = Some G' -> calls_opaque e -> ext G' H -> consistent H (locals s) ->
    exec rw subs fuel e s = Some s' -> consistent H (locals s').
  Proof.
    intros fuel e G G' H s s' Hwf Hop Hext Hc He. revert G G' Hwf Hop Hext Hc. revert fuel e s s' He.
    apply (exec_ind (fun _ e s s' => forall G G', wf_effect rw G e = Some G' -> calls_opaque e -> ext G' H ->
                                       consistent H (locals s) -> consistent H (locals s')));
      try solve [intros; assumption].
    - intros k x p s v Ev _ G G' Hwf _ Hext Hc. cbn [locals set_local].
      apply consistent_set; [exact Hc | exact (setl_sort _ _ _ _ _ _ _ Hwf Hext Hc Ev)].
    - intros k a b s s1 s2 _ _ IH1 IH2 G G' Hwf [Hop1 Hop2] Hext Hc.
      destruct (wf_seq_inv _ _ _ _ Hwf) as (G1 & W1 & W2).
      eapply IH2; eauto. eapply IH1; eauto. eapply ext_trans; [eapply wf_effect_mono; exact W2 | exact Hext].
    - intros k c t f b s s' _ _ IH G G' Hwf [Hop1 Hop2] Hext Hc.
      destruct (wf_branch_inv _ _ _ _ _ Hwf) as (_ & G1 & W1 & W2). destruct b; eapply IH; eauto.
      eapply ext_trans; [eapply wf_effect_mono; exact W2 | exact Hext].
    - intros k c b s s1 s2 _ _ _ IH1 IH2 G G' Hwf Hop Hext Hc.
      destruct (wf_repeat_inv _ _ _ _ Hwf) as [_ W]. eapply IH2; eauto.
    - intros k f args ps body s s' Ef _ _ G G' _ Hop. cbn [calls_opaque] in Hop. congruence.
  Qed.

  (* a local never holds a value of another sort than the one recorded *)
  Corollary wf_effect_sort_consistency : forall fuel e G G' s s',
    wf_effect rw G e = Some G' -> calls_opaque e -> consistent G' (locals s) ->
    exec rw subs fuel e s = Some s' ->
    forall x t v, lookup x G' = Some t -> lookup x (locals s') = Some v -> sort_of_val v = t.
  Proof.
    intros fuel e G G' s s' Hwf Hop Hc He.
    exact (wf_effect_preservation fuel e G G' G' s s' Hwf Hop (ext_refl G') Hc He).
  Qed.

  (* same, from the more familiar precondition "the state and G agree exactly" (e.g. both empty), and
     together with the part of definite assignment that does survive: what was assigned stays assigned *)
  Corollary wf_effect_preservation_exact : forall fuel e G G' s s',
    wf_effect rw G e = Some G' -> calls_opaque e ->
    env_ok G (locals s) -> locals_in G (locals s) ->
    exec rw subs fuel e s = Some s' ->
    env_ok G (locals s') /\ consistent G' (locals s').
  Proof.
    intros fuel e G G' s s' Hwf Hop Hok Hin He. split.
    - eapply exec_env_ok_stable; eauto.
    - eapply wf_effect_preservation; eauto using ext_refl.
      eapply locals_in_consistent; eauto. eapply wf_effect_mono; eauto.
  Qed.

  (* wf_effect is a "may" analysis (one global table, arms threaded): it cannot justify progress.
     da_effect is the matching "must" analysis: both arms are checked from the same D and only the bindings
     they agree on survive; a loop body may run zero times so it contributes nothing. *)
  Fixpoint da_effect (D : lenv) (e : effect) : option lenv :=
    match e with
    | ESeq a b => match da_effect D a with Some D1 => da_effect D1 b | None => None end
    | EBranch c t f =>
        match sort_of rw D [] c with
        | Some SBool =>
            match da_effect D t, da_effect D f with Some D1, Some D2 => Some (inter D1 D2) | _, _ => None end
        | _ => None end
    | ERepeat c b =>
        match sort_of rw D [] c with
        | Some SBool => match da_effect D b with Some _ => Some D | None => None end
        | _ => None end
    | _ => wf_effect rw D e
    end.

  Lemma da_seq_inv D D' a b :
    da_effect D (ESeq a b) = Some D' -> exists D1, da_effect D a = Some D1 /\ da_effect D1 b = Some D'.
  Proof. cbn [da_effect]. intro H. destruct (da_effect D a) as [D1|]; [eauto | discriminate H]. Qed.
  Lemma da_branch_inv D D' c t f :
    da_effect D (EBranch c t f) = Some D' ->
    sort_of rw D [] c = Some SBool /\
    exists D1 D2, da_effect D t = Some D1 /\ da_effect D f = Some D2 /\ D' = inter D1 D2.
  Proof.
    cbn [da_effect]. intro H. destruct (sort_of rw D [] c) as [[|]|]; try discriminate H.
    destruct (da_effect D t) as [D1|]; [|discriminate H]. destruct (da_effect D f) as [D2|]; [|discriminate H].
    injection H as <-. eauto 6.
  Qed.
  Lemma da_repeat_inv D D' c b :
    da_effect D (ERepeat c b) = Some D' ->
    sort_of rw D [] c = Some SBool /\ D' = D /\ exists D1, da_effect D b = Some D1.
  Proof.
    cbn [da_effect]. intro H. destruct (sort_of rw D [] c) as [[|]|]; try discriminate H.
    destruct (da_effect D b) as [D1|]; [|discriminate H]. injection H as <-. eauto.
  Qed.

  Lemma da_wf_branch_free : forall e D, branch_free e = true -> da_effect D e = wf_effect rw D e.
  Proof.
    induction e; intros D Hb; cbn [branch_free] in Hb; try discriminate Hb; try reflexivity.
    apply andb_true_iff in Hb. destruct Hb as [H1 H2]. cbn [da_effect wf_effect].
    rewrite (IHe1 _ H1). destruct (wf_effect rw D e1); auto.
  Qed.

  Lemma da_effect_mono : forall e D D', da_effect D e = Some D' -> ext D D'.
  Proof.
    induction e; intros D D' H; try (eapply wf_effect_mono; exact H).
    - destruct (da_seq_inv _ _ _ _ H) as (D1 & H1 & H2). eapply ext_trans; eauto.
    - destruct (da_branch_inv _ _ _ _ _ H) as (_ & D1 & D2 & H1 & H2 & ->).
      intros x t Hx. apply inter_spec. split; [eapply IHe1 | eapply IHe2]; eauto.
    - destruct (da_repeat_inv _ _ _ _ H) as (_ & -> & _). apply ext_refl.
  Qed.

  (* preservation of definite assignment, for every effect (calls included) and every fuel *)
  Theorem da_effect_preservation : forall fuel e D D' s s',
    da_effect D e = Some D' -> env_ok D (locals s) -> exec rw subs fuel e s = Some s' ->
    env_ok D' (locals s').
  Proof.
    intros fuel e D D' s s' Hda Hok He. revert D D' Hda Hok. revert fuel e s s' He.
    apply (exec_ind (fun _ e s s' => forall D D', da_effect D e = Some D' -> env_ok D (locals s) ->
                                       env_ok D' (locals s')));
      try solve [intros until D'; intro Hda; injection Hda as <-; intro Hok; exact Hok].
    - intros k x p s v Ev _ D D' Hda Hok. destruct (wf_setl_inv _ _ _ _ Hda) as (t & Es & Hx & _ & Hcase).
      assert (Sv : sort_of_val v = t)
        by (eapply (sort_of_agree rw p D [] s [] t v); eauto using consistent_nil_l, env_ok_consistent).
      cbn [locals set_local]. destruct Hcase as [-> | [_ ->]].
      + apply env_ok_set; [exact Hok|]. intros t' Ht'. congruence.
      + apply env_ok_cons; assumption.
    - intros k r p s v _ D D' Hda Hok. apply wf_writereg_inv in Hda. destruct Hda as [-> _]. exact Hok.
    - intros k a v s wa x w y _ _ D D' Hda Hok. apply wf_store_inv in Hda. destruct Hda as [-> _]. exact Hok.
    - intros k a b s s1 s2 _ _ IH1 IH2 D D' Hda Hok. destruct (da_seq_inv _ _ _ _ Hda) as (D1 & A1 & A2). eauto.
    - intros k c t f b s s' _ _ IH D D' Hda Hok. destruct (da_branch_inv _ _ _ _ _ Hda) as (_ & D1 & D2 & A1 & A2 & ->).
      destruct b; (eapply env_ok_ext; [|eapply IH; eassumption]); intros x u Hx; apply inter_spec in Hx; tauto.
    - (* the body's result extends D: the loop is re-entered from D *)
      intros k c b s s1 s2 _ _ _ IH1 IH2 D D' Hda Hok. destruct (da_repeat_inv _ _ _ _ Hda) as (_ & -> & D1 & A1).
      eapply IH2; [exact Hda|]. eapply env_ok_ext; [eapply da_effect_mono; exact A1 | eauto].
    - intros k c b s _ D D' Hda Hok. destruct (da_repeat_inv _ _ _ _ Hda) as (_ & -> & _). exact Hok.
    - intros k f args ps body s s' _ He _ D D' Hda Hok. injection Hda as <-. eapply exec_env_ok_stable; eauto.
  Qed.

  (* naive_preservation_statement holds for effects without EBranch / ERepeat *)
  Corollary wf_effect_preservation_branch_free : forall fuel e G G' s s',
    branch_free e = true -> wf_effect rw G e = Some G' -> env_ok G (locals s) ->
    exec rw subs fuel e s = Some s' -> env_ok G' (locals s').
  Proof.
    intros fuel e G G' s s' Hb Hwf Hok He. eapply da_effect_preservation; eauto.
    rewrite da_wf_branch_free; assumption.
  Qed.

  (* Progress for loop-free effects whose calls are opaque, for EVERY fuel >= depth e.
     Side conditions that naive_progress_statement lacks, each one necessary (counterexamples below):
       - da_effect D e = Some D' with env_ok D (locals s): reads only of definitely assigned locals
         (wf_effect alone accepts an else-arm reading a local that only the then-arm sets);
       - consistent H (locals s) for some H extending G': locals the state already holds must not clash with
         the sorts the effect is going to give them (ESetL is checked at run time against the old value). *)
  Theorem wf_effect_progress : forall e G G' H D D' s fuel,
    wf_effect rw G e = Some G' -> ext G' H -> consistent H (locals s) ->
    da_effect D e = Some D' -> env_ok D (locals s) ->
    no_repeat e = true -> calls_opaque e -> (depth e <= fuel)%nat ->
    exists s', exec rw subs fuel e s = Some s' /\ env_ok D' (locals s') /\ consistent H (locals s').
  Proof.
    intros e G G' H D D' s fuel Hwf Hext Hc Hda Hok Hnr Hop Hfuel.
    (* the run exists; what it preserves follows from the two preservation theorems *)
    enough (exists s', exec rw subs fuel e s = Some s') as (s' & He).
    { exists s'. split; [exact He|]. split; [eapply da_effect_preservation | eapply wf_effect_preservation]; eauto. }
    revert G G' H D D' s fuel Hwf Hext Hc Hda Hok Hnr Hop Hfuel.
    induction e; intros G G' H D D' s fuel Hwf Hext Hc Hda Hok Hnr Hop Hfuel;
      (destruct fuel as [|k]; [cbn [depth] in Hfuel; lia|]); cbn [exec].
    - (* ESetL: the value exists by soundness (da side) and has the recorded sort (wf side), so the run-time check passes *)
      destruct (wf_setl_inv _ _ _ _ Hda) as (t & Es & _).
      destruct (sort_of_sound rw p D [] s [] t Hok (env_ok_nil _) Es) as (v & Ev & Sv). rewrite Ev.
      destruct (lookup x (locals s)) as [old|] eqn:El; [|eauto].
      destruct (wf_setl_inv _ _ _ _ Hwf) as (t' & _ & Hx & _). apply Hext in Hx.
      rewrite (Hc _ _ _ Hx El), (setl_sort _ _ _ _ _ _ _ Hwf Hext Hc Ev _ Hx), sort_eqb_refl. eauto.
    - (* EWriteReg *) apply wf_writereg_inv in Hda. destruct Hda as [_ Es].
      destruct (sort_of_sound rw p D [] s [] _ Hok (env_ok_nil _) Es) as (v & Ev & Sv). rewrite Ev.
      destruct (sort_bv_inv _ _ Sv) as [z ->]. rewrite N.eqb_refl. eauto.
    - (* EStore *) apply wf_store_inv in Hda. destruct Hda as [_ (wa & wv & Ea & Ev)].
      destruct (sort_of_sound rw addr D [] s [] _ Hok (env_ok_nil _) Ea) as (va & Eva & Sva). rewrite Eva.
      destruct (sort_of_sound rw v D [] s [] _ Hok (env_ok_nil _) Ev) as (vv & Evv & Svv). rewrite Evv.
      destruct (sort_bv_inv _ _ Sva) as [za ->]. destruct (sort_bv_inv _ _ Svv) as [zv ->]. eauto.
    - (* ESeq: the invariants of both analyses hold in the middle state by preservation *)
      destruct (wf_seq_inv _ _ _ _ Hwf) as (G1 & W1 & W2). destruct (da_seq_inv _ _ _ _ Hda) as (D1 & A1 & A2).
      cbn [no_repeat] in Hnr. apply andb_true_iff in Hnr. destruct Hnr as [Hn1 Hn2]. destruct Hop as [Hop1 Hop2].
      cbn [depth] in Hfuel.
      assert (Hext1 : ext G1 H) by (eapply ext_trans; [eapply wf_effect_mono; exact W2 | exact Hext]).
      destruct (IHe1 G G1 H D D1 s k W1 Hext1 Hc A1 Hok Hn1 Hop1 ltac:(lia)) as (s1 & E1). rewrite E1.
      eapply (IHe2 G1 G' H D1 D' s1 k); eauto; [| |lia].
      + exact (wf_effect_preservation k e1 G G1 H s s1 W1 Hop1 Hext1 Hc E1).
      + exact (da_effect_preservation k e1 D D1 s s1 A1 Hok E1).
    - (* EBranch *) destruct (wf_branch_inv _ _ _ _ _ Hwf) as (_ & G1 & W1 & W2).
      destruct (da_branch_inv _ _ _ _ _ Hda) as (Ec & D1 & D2 & A1 & A2 & _).
      cbn [no_repeat] in Hnr. apply andb_true_iff in Hnr. destruct Hnr as [Hn1 Hn2]. destruct Hop as [Hop1 Hop2].
      cbn [depth] in Hfuel.
      destruct (sort_of_sound rw c D [] s [] _ Hok (env_ok_nil _) Ec) as (vc & Evc & Svc). rewrite Evc.
      destruct (sort_bool_inv _ Svc) as [cb ->]. destruct cb.
      + eapply (IHe1 G G1 H D D1 s k); eauto; [|lia].
        eapply ext_trans; [eapply wf_effect_mono; exact W2 | exact Hext].
      + eapply (IHe2 G1 G' H D D2 s k); eauto; lia.
    - (* ERepeat *) discriminate Hnr.
    - (* ENop *) eauto.
    - (* EEmpty *) eauto.
    - (* ECall *) cbn [calls_opaque] in Hop. rewrite Hop. eauto.
    - (* EPlugin *) eauto.
  Qed.

  (* from an empty local store (how every instruction starts) *)
  Corollary wf_effect_progress_init : forall e G' D' s,
    wf_effect rw [] e = Some G' -> da_effect [] e = Some D' -> no_repeat_no_call e = true -> locals s = [] ->
    exists fuel s', exec rw subs fuel e s = Some s' /\ env_ok D' (locals s') /\ consistent G' (locals s').
  Proof.
    intros e G' D' s Hwf Hda Hn Hl. exists (depth e).
    eapply (wf_effect_progress e [] G' G' [] D' s (depth e)); eauto using ext_refl, no_call_opaque, no_call_no_repeat.
    - rewrite Hl. apply consistent_nil_r.
    - apply env_ok_nil.
  Qed.

  (* straight-line effects: wf_effect alone is enough, and the result environment is fully assigned *)
  Corollary wf_effect_progress_branch_free : forall e G G' s,
    branch_free e = true -> no_repeat_no_call e = true ->
    wf_effect rw G e = Some G' -> env_ok G (locals s) -> consistent G' (locals s) ->
    exists fuel s', exec rw subs fuel e s = Some s' /\ env_ok G' (locals s').
  Proof.
    intros e G G' s Hb Hn Hwf Hok Hc. exists (depth e).
    destruct (wf_effect_progress e G G' G' G G' s (depth e)) as (s' & He & Hok' & _);
      eauto using ext_refl, no_call_opaque, no_call_no_repeat.
    rewrite da_wf_branch_free; assumption.
  Qed.
End Effects.
Print Assumptions wf_effect_preservation.
Print Assumptions wf_effect_sort_consistency.
Print Assumptions da_effect_preservation.
Print Assumptions wf_effect_progress.
Print Assumptions wf_effect_progress_init.
Print Assumptions wf_effect_progress_branch_free.

Section Stable.
  Variable rw : regwidth.

  (* e is accepted again, unchanged, from any extension of the checker's result *)
  Lemma wf_effect_stable : forall e G G1 H, wf_effect rw G e = Some G1 -> ext G1 H -> wf_effect rw H e = Some H.
  Proof.
    induction e; intros G G1 H Hwf Hext; try reflexivity.
    - destruct (wf_setl_inv _ _ _ _ _ Hwf) as (t & Es & Hx & HGG & _). cbn [wf_effect].
      rewrite (sort_of_weaken rw G H (ext_trans _ _ _ HGG Hext) _ _ _ Es), (Hext _ _ Hx), sort_eqb_refl. reflexivity.
    - destruct (wf_writereg_inv _ _ _ _ _ Hwf) as [-> Es]. cbn [wf_effect].
      rewrite (sort_of_weaken rw G H Hext _ _ _ Es), N.eqb_refl. reflexivity.
    - destruct (wf_store_inv _ _ _ _ _ Hwf) as [-> (wa & wv & Ea & Ev)]. cbn [wf_effect].
      rewrite (sort_of_weaken rw G H Hext _ _ _ Ea), (sort_of_weaken rw G H Hext _ _ _ Ev). reflexivity.
    - destruct (wf_seq_inv _ _ _ _ _ Hwf) as (Ga & W1 & W2). cbn [wf_effect].
      rewrite (IHe1 G Ga H W1 (ext_trans _ _ _ (wf_effect_mono _ _ _ _ W2) Hext)). exact (IHe2 Ga G1 H W2 Hext).
    - destruct (wf_branch_inv _ _ _ _ _ _ Hwf) as (Ec & Ga & W1 & W2). cbn [wf_effect].
      pose proof (ext_trans _ _ _ (wf_effect_mono _ _ _ _ W2) Hext) as Ha.
      rewrite (sort_of_weaken rw G H (ext_trans _ _ _ (wf_effect_mono _ _ _ _ W1) Ha) _ _ _ Ec), (IHe1 G Ga H W1 Ha).
      exact (IHe2 Ga G1 H W2 Hext).
    - destruct (wf_repeat_inv _ _ _ _ _ Hwf) as [Ec W]. cbn [wf_effect].
      rewrite (sort_of_weaken rw G H (ext_trans _ _ _ (wf_effect_mono _ _ _ _ W) Hext) _ _ _ Ec).
      exact (IHe G G1 H W Hext).
  Qed.
End Stable.
Print Assumptions wf_effect_stable.

Definition st0 (l : list (string * val)) : mstate :=
  {| locals := l; rold := fun _ => 0; rnew := []; rnew0 := fun _ => 0; imms := fun _ => 0; pktaddr := 0;
     mem := []; mem0 := fun _ => 0; events := [] |}.
Definition rw0 : regwidth := fun _ => 32%N.
Definition subs0 : subenv := fun _ => None.

(* preservation, progress and sort consistency with env_ok G (locals s) as the only hypothesis on the state *)
Definition naive_preservation_statement : Prop :=
  forall rw subs fuel e G G' s s', wf_effect rw G e = Some G' -> env_ok G (locals s) ->
    exec rw subs fuel e s = Some s' -> env_ok G' (locals s').
Definition naive_progress_statement : Prop :=
  forall rw subs e G G' s, wf_effect rw G e = Some G' -> env_ok G (locals s) -> no_repeat_no_call e = true ->
    exists fuel s', exec rw subs fuel e s = Some s'.
Definition naive_consistency_statement : Prop :=
  forall rw subs fuel e G G' s s', wf_effect rw G e = Some G' -> env_ok G (locals s) ->
    exec rw subs fuel e s = Some s' ->
    forall x t v, lookup x G' = Some t -> lookup x (locals s') = Some v -> sort_of_val v = t.

(* a local first set in the arm that is NOT executed is recorded but unassigned *)
Theorem naive_preservation_false : ~ naive_preservation_statement.
Proof.
  intro N.
  pose (e := EBranch (PBool true) ENop (ESetL "x" (PBool true))).
  assert (H : env_ok [("x", SBool)] (locals (st0 []))).
  { apply (N rw0 subs0 2%nat e [] [("x", SBool)] (st0 []) (st0 [])); [reflexivity | apply env_ok_nil | reflexivity]. }
  destruct (H "x" SBool eq_refl) as (v & Hv & _). discriminate Hv.
Qed.

(* from the EMPTY state: the else-arm reads a local that only the then-arm sets; wf_effect accepts it
   (arms are threaded), the machine is stuck whatever the fuel *)
Theorem naive_progress_false : ~ naive_progress_statement.
Proof.
  intro N.
  pose (e := EBranch (PBool false) (ESetL "x" (PBool true)) (ESetL "y" (PVarL "x"))).
  destruct (N rw0 subs0 e [] [("y", SBool); ("x", SBool)] (st0 [])) as (fuel & s' & He);
    [reflexivity | apply env_ok_nil | reflexivity |].
  destruct fuel as [|[|k]]; discriminate He.
Qed.

(* progress also fails for a single assignment when the state holds a local the checker does not know *)
Example progress_needs_consistency :
  let e := ESetL "x" (PBv false 32 0) in
  wf_effect rw0 [] e = Some [("x", SBv 32)] /\ env_ok [] (locals (st0 [("x", VB true)])) /\
  forall fuel, exec rw0 subs0 fuel e (st0 [("x", VB true)]) = None.
Proof. split; [reflexivity|]. split; [apply env_ok_nil|]. intros [|k]; reflexivity. Qed.

(* sort consistency of the result needs consistency of the start state against G' (not just env_ok G) *)
Theorem naive_consistency_false : ~ naive_consistency_statement.
Proof.
  intro N.
  pose (e := EBranch (PBool false) (ESetL "x" (PBv false 32 0)) ENop).
  pose (s := st0 [("x", VB true)]).
  assert (H : sort_of_val (VB true) = SBv 32).
  { apply (N rw0 subs0 2%nat e [] [("x", SBv 32)] s s eq_refl (env_ok_nil _) eq_refl "x" (SBv 32) (VB true));
      reflexivity. }
  discriminate H.
Qed.

(* sort consistency also needs calls_opaque, even from the empty state: a known callee may create the local first *)
Example consistency_needs_opaque_calls :
  let subs1 : subenv := fun f => if String.eqb f "f" then Some ([], ESetL "x" (PBool true)) else None in
  let e := ESeq (EBranch (PBool false) (ESetL "x" (PBv false 32 0)) ENop) (ECall "f" []) in
  wf_effect rw0 [] e = Some [("x", SBv 32)] /\
  exists s', exec rw0 subs1 3 e (st0 []) = Some s' /\ lookup "x" (locals s') = Some (VB true).
Proof. split; [reflexivity|]. eexists. split; reflexivity. Qed.
Print Assumptions naive_preservation_false.
Print Assumptions naive_progress_false.
Print Assumptions naive_consistency_false.
