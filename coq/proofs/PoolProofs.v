(* Schedule independence of the worker-pool model (model/Pool.v):
   for every number of workers and every schedule, the consumer receives exactly `map f tasks`, in order;
   the pool never deadlocks; a changed task only changes its own result slot. *)
From Coq Require Import List Arith Lia Permutation.
From RZ.model Require Import Pool.
Import ListNotations.

Lemma skipn_cons_nth : forall (A : Type) k (l : list A) t rest,
  skipn k l = t :: rest -> nth_error l k = Some t /\ skipn (S k) l = rest.
Proof.
  intros A k. induction k as [|k IH]; intros l t rest H.
  - destruct l as [|a l]; simpl in H; [discriminate|]. inversion H; subst. split; reflexivity.
  - destruct l as [|a l]; simpl in H; [discriminate|]. apply IH in H. exact H.
Qed.

Lemma firstn_S_nth : forall (A : Type) n (l : list A) t,
  nth_error l n = Some t -> firstn (S n) l = firstn n l ++ [t].
Proof.
  intros A n. induction n as [|n IH]; intros l t H.
  - destruct l as [|a l]; simpl in H; [discriminate|]. inversion H; subst. reflexivity.
  - destruct l as [|a l]; simpl in H; [discriminate|].
    change (firstn (S (S n)) (a :: l)) with (a :: firstn (S n) l).
    rewrite (IH l t H). reflexivity.
Qed.

Lemma perm_move : forall (A : Type) (X Y Z : list A) i,
  Permutation ((X ++ i :: Y) ++ Z) ((X ++ Y) ++ i :: Z).
Proof.
  intros A X Y Z i.
  transitivity (i :: (X ++ Y) ++ Z).
  - symmetry. rewrite <- !app_assoc. simpl. apply Permutation_middle.
  - apply Permutation_middle.
Qed.

Ltac split_conj := repeat match goal with |- _ /\ _ => split end.

Section PoolProofs.
  Variables task result : Type.
  Variable f : task -> result.

  Notation cfg := (cfg task result).
  Notation step := (step task result f).
  Notation steps := (steps task result f).
  Notation init := (init task result).
  Notation final := (final task result).
  Notation queue := (queue task result).
  Notation running := (running task result).
  Notation buffer := (buffer task result).
  Notation next := (next task result).
  Notation acc := (acc task result).
  Notation index_from := (index_from task).

  (* indices of the tasks in flight (dispatched, result not yet delivered) *)
  Definition ids (c : cfg) : list nat := map fst (running c) ++ map fst (buffer c).

  (* k = number of tasks dispatched so far: in flight are exactly the indices from next c up to k *)
  Definition inv_at (tasks : list task) (c : cfg) (k : nat) : Prop :=
    queue c = index_from k (skipn k tasks) /\
    k <= length tasks /\
    acc c = map f (firstn (next c) tasks) /\
    (forall i t, In (i, t) (running c) -> nth_error tasks i = Some t) /\
    (forall i x, In (i, x) (buffer c) -> exists t, nth_error tasks i = Some t /\ x = f t) /\
    next c <= k /\
    Permutation (ids c) (seq (next c) (k - next c)).

  Definition inv (tasks : list task) (c : cfg) : Prop := exists k, inv_at tasks c k.

  Lemma inv_init : forall tasks, inv tasks (init tasks).
  Proof.
    intros tasks. exists 0. unfold inv_at, ids, Pool.init; simpl.
    repeat split; try lia; try constructor; try contradiction.
  Qed.

  Lemma index_from_nil : forall k l, index_from k l = [] -> l = [].
  Proof. intros k l H. destruct l; [reflexivity|discriminate]. Qed.

  Lemma inv_step : forall workers tasks c c', inv tasks c -> step workers c c' -> inv tasks c'.
  Proof.
    intros workers tasks c c' [k Hinv] Hstep.
    destruct Hstep as [i t q r b n a Hlt | q r1 i t r2 b n a | q r b1 x b2 n a];
      unfold inv_at, ids in Hinv; simpl in Hinv;
      destruct Hinv as (Hq & Hk & Hacc & Hrun & Hbuf & Hn & Hids).
    - (* Dispatch: index k joins *)
      destruct (skipn k tasks) as [|t0 rest] eqn:Hsk; simpl in Hq; [discriminate|].
      inversion Hq; subst i t0 q. clear Hq.
      destruct (skipn_cons_nth _ _ _ _ _ Hsk) as [Hnth Hsk'].
      assert (HkS : k < length tasks) by (apply nth_error_Some; congruence).
      exists (S k). unfold inv_at, ids; cbn [Pool.queue Pool.running Pool.buffer Pool.next Pool.acc].
      split_conj; try assumption; try lia.
      + rewrite Hsk'. reflexivity.
      + intros i t' Hin. apply in_app_or in Hin. destruct Hin as [Hin|[Hin|[]]].
        * eauto.
        * inversion Hin; subst. exact Hnth.
      + replace (S k - n) with (S (k - n)) by lia. rewrite seq_S. replace (n + (k - n)) with k by lia.
        rewrite <- Hids, map_app, <- app_assoc. cbn [map fst app].
        rewrite <- Permutation_middle. apply Permutation_cons_append.
    - (* Complete: index i moves from running to the buffer *)
      exists k. unfold inv_at, ids; cbn [Pool.queue Pool.running Pool.buffer Pool.next Pool.acc].
      split_conj; try assumption.
      + intros i' t' Hin. apply (Hrun i' t'). rewrite in_app_iff in *. cbn [In]. tauto.
      + intros i' x [Heq|Hin].
        * inversion Heq; subst. exists t. split; [apply Hrun, in_elt | reflexivity].
        * eauto.
      + rewrite <- Hids, !map_app. cbn [map fst]. symmetry. apply perm_move.
    - (* Yield: index n, the least one in flight, leaves *)
      rewrite map_app, app_assoc in Hids. cbn [map fst] in Hids.
      assert (Hlt : n < k).
      { assert (Hin : In n (seq n (k - n))) by (apply (Permutation_in _ Hids), in_elt). apply in_seq in Hin. lia. }
      replace (k - n) with (S (k - S n)) in Hids by lia. cbn [seq] in Hids.
      symmetry in Hids. apply Permutation_cons_app_inv in Hids.
      destruct (Hbuf n x (in_elt _ _ _)) as (t & Hnth & Hx).
      exists k. unfold inv_at, ids; cbn [Pool.queue Pool.running Pool.buffer Pool.next Pool.acc].
      split_conj; try assumption; try lia.
      + rewrite (firstn_S_nth _ _ _ _ Hnth), map_app, Hacc, Hx. reflexivity.
      + intros i' x' Hin. apply (Hbuf i' x'). rewrite in_app_iff in *. cbn [In]. tauto.
      + rewrite map_app, app_assoc. symmetry. exact Hids.
  Qed.

  Lemma inv_steps : forall workers tasks c c', steps workers c c' -> inv tasks c -> inv tasks c'.
  Proof.
    intros workers tasks c c' H. induction H as [c|c1 c2 c3 Hs _ IH]; intros Hinv.
    - exact Hinv.
    - apply IH. eapply inv_step; eauto.
  Qed.

  (* every schedule, every number of workers: the consumer received the sequential map *)
  Theorem pool_sequential : forall workers tasks c,
    steps workers (init tasks) c -> final c -> acc c = map f tasks.
  Proof.
    intros workers tasks c Hsteps (Hq & Hr & Hb).
    destruct (inv_steps _ _ _ _ Hsteps (inv_init tasks)) as [k Hinv].
    unfold inv_at, ids in Hinv.
    destruct Hinv as (Hq' & Hk & Hacc & _ & _ & Hn & Hids).
    rewrite Hr, Hb in Hids. apply Permutation_nil, (f_equal (@length nat)) in Hids. rewrite seq_length in Hids.
    rewrite Hq in Hq'. symmetry in Hq'. apply index_from_nil in Hq'.
    assert (Hlen : length (skipn k tasks) = 0) by (rewrite Hq'; reflexivity).
    rewrite skipn_length in Hlen. cbn [length] in Hids.
    rewrite Hacc. rewrite firstn_all2 by lia. reflexivity.
  Qed.

  (* no deadlock *)
  Theorem pool_progress : forall workers tasks c,
    workers >= 1 -> steps workers (init tasks) c -> ~ final c -> exists c', step workers c c'.
  Proof.
    intros workers tasks c Hw Hsteps Hnf.
    destruct (inv_steps _ _ _ _ Hsteps (inv_init tasks)) as [k Hinv].
    destruct c as [q r b n a]. unfold inv_at, ids in Hinv; simpl in Hinv.
    destruct Hinv as (_ & _ & _ & _ & _ & Hn & Hids).
    destruct r as [|[i t] r].
    - destruct q as [|[i t] q].
      + destruct b as [|p b].
        * exfalso. apply Hnf. repeat split.
        * (* only buffered results remain: the one with index `next` is among them *)
          cbn [map app] in Hids.
          assert (Hin : In n (map fst (p :: b))).
          { apply (Permutation_in _ (Permutation_sym Hids)).
            apply Permutation_length in Hids. rewrite seq_length in Hids.
            destruct (k - n); [discriminate Hids | left; reflexivity]. }
          apply in_map_iff in Hin. destruct Hin as ([n' x] & Hfst & Hin). simpl in Hfst. subst n'.
          apply in_split in Hin. destruct Hin as (b1 & b2 & Hb). rewrite Hb.
          eexists. apply Yield.
      + eexists. apply Dispatch. simpl. lia.
    - eexists. apply (Complete task result f workers q [] i t r b n a).
  Qed.

  (* one result per task *)
  Theorem one_entry_per_task : forall workers tasks c,
    steps workers (init tasks) c -> final c -> length (acc c) = length tasks.
  Proof.
    intros workers tasks c Hs Hf. rewrite (pool_sequential _ _ _ Hs Hf). apply map_length.
  Qed.

  (* a changed (e.g. failing) task only changes its own slot *)
  Theorem failure_isolated : forall workers tasks1 t t' tasks2 c c',
    steps workers (init (tasks1 ++ t :: tasks2)) c -> final c ->
    steps workers (init (tasks1 ++ t' :: tasks2)) c' -> final c' ->
    acc c = map f (tasks1 ++ t :: tasks2) /\
    acc c' = map f (tasks1 ++ t' :: tasks2) /\
    forall j, j <> length tasks1 -> nth_error (acc c) j = nth_error (acc c') j.
  Proof.
    intros workers tasks1 t t' tasks2 c c' Hs Hf Hs' Hf'.
    pose proof (pool_sequential _ _ _ Hs Hf) as H1.
    pose proof (pool_sequential _ _ _ Hs' Hf') as H2.
    split; [exact H1|]. split; [exact H2|].
    intros j Hj. rewrite H1, H2, !map_app.
    destruct (Nat.lt_ge_cases j (length tasks1)) as [Hlt|Hge].
    - rewrite !nth_error_app1 by (rewrite map_length; exact Hlt). reflexivity.
    - rewrite !nth_error_app2 by (rewrite map_length; exact Hge).
      rewrite map_length.
      destruct (j - length tasks1) as [|m] eqn:Hm; [lia|]. reflexivity.
  Qed.
End PoolProofs.

Print Assumptions pool_progress.
Print Assumptions one_entry_per_task.
Print Assumptions failure_isolated.

(* a concrete run: 2 workers, 3 tasks, task 1 completes before task 0 (at `cmid` the buffer holds
   only the result of task 1 while task 0 is still running); the consumer still gets the results in order. *)
Example reorder_run :
  exists cmid c,
    steps nat nat S 2 (init nat nat [10; 20; 30]) cmid /\
    running nat nat cmid = [(0, 10)] /\ buffer nat nat cmid = [(1, 21)] /\ next nat nat cmid = 0 /\
    steps nat nat S 2 cmid c /\
    final nat nat c /\ acc nat nat c = [11; 21; 31].
Proof.
  exists (mkcfg nat nat [(2, 30)] [(0, 10)] [(1, 21)] 0 []).
  exists (mkcfg nat nat [] [] [] 3 [11; 21; 31]).
  split; [|split; [reflexivity|split; [reflexivity|split; [reflexivity|split]]]].
  - unfold init; simpl.
    eapply steps_cons. { apply Dispatch. simpl. lia. } simpl.
    eapply steps_cons. { apply Dispatch. simpl. lia. } simpl.
    eapply steps_cons. { apply (Complete nat nat S 2 [(2, 30)] [(0, 10)] 1 20 [] [] 0 []). } simpl.
    apply steps_refl.
  - eapply steps_cons. { apply Dispatch. simpl. lia. } simpl.
    eapply steps_cons. { apply (Complete nat nat S 2 [] [] 0 10 [(2, 30)] [(1, 21)] 0 []). } simpl.
    eapply steps_cons. { apply (Yield nat nat S 2 [] [(2, 30)] [] 11 [(1, 21)] 0 []). } simpl.
    eapply steps_cons. { apply (Yield nat nat S 2 [] [(2, 30)] [] 21 [] 1 [11]). } simpl.
    eapply steps_cons. { apply (Complete nat nat S 2 [] [] 2 30 [] [] 2 [11; 21]). } simpl.
    eapply steps_cons. { apply (Yield nat nat S 2 [] [] [] 31 [] 2 [11; 21]). } simpl.
    apply steps_refl.
  - split; [unfold final; simpl; repeat split|reflexivity].
Qed.

Print Assumptions reorder_run.
Print Assumptions pool_sequential.
