(* Proofs about the REGENERATED gen/TypeRules.v (c11_cast, promoted_type as translated from ValueType.py), against
   sem/CTypesN.v: uac = the usual arithmetic conversions of C11 6.3.1.8 on (signedness, width), promote = 6.3.1.1. *)
From Coq Require Import NArith List Bool Lia ZifyBool ZifyN.
From RZ.lib Require Import PyHeap.
From RZ.sem Require Import CTypesN.
From RZ.gen Require Import TypeRules.
Import ListNotations.
Local Open Scope N_scope.

Lemma uac_sym a b : uac a b = uac b a.
Proof.
  unfold uac. destruct a as [sa wa], b as [sb wb]; cbn [vsigned vbw].
  destruct sa, sb; cbn [Bool.eqb]; try (f_equal; lia);
  repeat match goal with |- context [?x <=? ?y] => destruct (N.leb_spec x y) end; try reflexivity; try lia; f_equal; lia.
Qed.

(* a heap that ends in two cells: reads and writes of those two *)
Lemma rd_tail0 h x y : rd (h ++ [x; y]) (length h) = x.
Proof. induction h; simpl; auto. Qed.
Lemma rd_tail1 h x y : rd (h ++ [x; y]) (S (length h)) = y.
Proof. induction h; simpl; auto. Qed.
Lemma upd_tail0 h x y v : upd (h ++ [x; y]) (length h) v = h ++ [v; y].
Proof. induction h; simpl; congruence. Qed.
Lemma upd_tail1 h x y v : upd (h ++ [x; y]) (S (length h)) v = h ++ [x; v].
Proof. induction h; simpl; congruence. Qed.

Theorem c11_cast_spec : forall h a b, (a < length h)%nat -> (b < length h)%nat ->
  let '(h', (ra, rb)) := c11_cast h a b in
  rd h' ra = uac (rd h a) (rd h b) /\ rd h' rb = uac (rd h a) (rd h b) /\ same_old h h'
  /\ (length h <= length h')%nat.
Proof.
  (* the two copies are the last two cells of the heap, and every later read and write goes to one of them: the
     result heap is h with two explicit cells appended, whatever the signs and widths *)
  intros h a b Ha Hb. unfold c11_cast, same_old, deepcopy, alloc.
  rewrite (rd_old h _ b Hb), <- app_assoc, app_length, PeanoNat.Nat.add_1_r. cbn [app length].
  unfold set_bw, set_signed, uac.
  destruct (rd h a) as [sa wa] eqn:Ea, (rd h b) as [sb wb] eqn:Eb. rewrite !rd_tail0, !rd_tail1. cbn [vsigned vbw].
  destruct sa, sb; cbn [Bool.eqb andb]; rewrite ?rd_tail0, ?rd_tail1; cbn [vsigned vbw];
    repeat match goal with |- context [if ?c then _ else _] => destruct c eqn:? end;
    repeat (rewrite ?upd_tail0, ?upd_tail1, ?rd_tail0, ?rd_tail1; cbn [vsigned vbw]);
    repeat split; intros; rewrite ?Ea, ?Eb, ?rd_old, ?app_length by assumption; solve [f_equal; lia | lia].
Qed.

(* symmetric: swapping the arguments yields the same common type for both results *)
Theorem c11_cast_sym : forall h a b, (a < length h)%nat -> (b < length h)%nat ->
  let '(h1, (ra, _)) := c11_cast h a b in
  let '(h2, (rb, _)) := c11_cast h b a in
  rd h1 ra = rd h2 rb.
Proof.
  intros h a b Ha Hb.
  pose proof (c11_cast_spec h a b Ha Hb) as S1. pose proof (c11_cast_spec h b a Hb Ha) as S2.
  destruct (c11_cast h a b) as [h1 [ra rb]]. destruct (c11_cast h b a) as [h2 [rb' ra']].
  destruct S1 as [S1 _]. destruct S2 as [S2 _]. rewrite S1, S2. apply uac_sym.
Qed.

(* aliased arguments (a is b): both results are the very same object, nothing is allocated *)
Theorem c11_cast_alias : forall h a, c11_cast h a a = (h, (a, a)).
Proof.
  intros h a. unfold c11_cast. rewrite eqb_reflx, N.eqb_refl. reflexivity.
Qed.

Theorem promoted_spec : forall h a, (a < length h)%nat ->
  let '(h', r) := promoted_type h a in
  rd h' r = promote (rd h a) /\ same_old h h'
  /\ (32 <= vbw (rd h a) -> r = a /\ h' = h).
Proof.
  intros h a Ha. unfold promoted_type, promote, same_old.
  destruct (32 <=? vbw (rd h a)) eqn:E.
  - assert (vbw (rd h a) <? 32 = false) as -> by lia. auto.
  - assert (vbw (rd h a) <? 32 = true) as -> by lia. unfold alloc.
    split; [apply rd_app_new|]. split; [intros; apply rd_app_old; auto | lia].
Qed.

(* a concrete run: signed and unsigned char give unsigned char, and the first argument's object is left as it was *)
Example c11_cast_example :
  let h := [ {| vsigned := true; vbw := 8 |}; {| vsigned := false; vbw := 8 |} ] in
  let '(h', (ra, rb)) := c11_cast h 0%nat 1%nat in
  rd h' ra = {| vsigned := false; vbw := 8 |} /\ rd h' 0%nat = {| vsigned := true; vbw := 8 |}.
Proof. vm_compute. auto. Qed.
