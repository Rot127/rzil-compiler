(* A heap of Python ValueType objects: object identity, aliasing and in-place mutation are
   part of the model (needed for "computing the common type never modifies the types passed in"). *)
From Coq Require Import NArith List Bool Lia.
Import ListNotations.

Record vt := { vsigned : bool; vbw : N }.
Definition loc := nat.
Definition heap := list vt.
Definition vt0 := {| vsigned := false; vbw := 0 |}.
Definition rd (h : heap) (l : loc) : vt := nth l h vt0.
Fixpoint upd (h : heap) (l : loc) (v : vt) : heap :=
  match h, l with
  | [], _ => []
  | _ :: t, O => v :: t
  | x :: t, S l' => x :: upd t l' v
  end.
Definition alloc (h : heap) (v : vt) : heap * loc := (h ++ [v], length h).
Definition deepcopy (h : heap) (l : loc) := alloc h (rd h l).
Definition set_bw h l w := upd h l {| vsigned := vsigned (rd h l); vbw := w |}.
Definition set_signed h l s := upd h l {| vsigned := s; vbw := vbw (rd h l) |}.

Definition vt_eqb (a b : vt) : bool := Bool.eqb (vsigned a) (vsigned b) && N.eqb (vbw a) (vbw b).

Lemma rd_upd_same h l v : l < length h -> rd (upd h l v) l = v.
Proof. revert l; induction h as [|x h IH]; intros [|l] H; simpl in *; try lia; auto. unfold rd in *. simpl. apply IH. lia. Qed.
Lemma rd_upd_other h l l' v : l <> l' -> rd (upd h l v) l' = rd h l'.
Proof. revert l l'; induction h as [|x h IH]; intros [|l] [|l'] H; simpl in *; try congruence; auto. unfold rd in *; simpl. apply IH. congruence. Qed.
Lemma len_upd h l v : length (upd h l v) = length h.
Proof. revert l; induction h as [|x h IH]; intros [|l]; simpl; auto. Qed.
Lemma rd_old h t l : l < length h -> rd (h ++ t) l = rd h l.
Proof. intros. unfold rd. apply app_nth1. auto. Qed.
Lemma rd_app_old h v l : l < length h -> rd (h ++ [v]) l = rd h l.
Proof. apply rd_old. Qed.
Lemma rd_app_new h v : rd (h ++ [v]) (length h) = v.
Proof. unfold rd. rewrite app_nth2 by lia. rewrite PeanoNat.Nat.sub_diag. reflexivity. Qed.

Definition same_old (h h' : heap) := forall l, l < length h -> rd h' l = rd h l.

Lemma vt_eqb_eq a b : vt_eqb a b = true <-> a = b.
Proof.
  destruct a as [sa wa], b as [sb wb]; unfold vt_eqb; simpl. rewrite andb_true_iff, eqb_true_iff, N.eqb_eq.
  split; [intros [-> ->]; reflexivity | intros H; inversion H; auto].
Qed.
