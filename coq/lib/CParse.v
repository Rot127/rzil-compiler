(* CParse -- a REFERENCE for "the C structure of an expression", driven by a precedence table.
   Definitions only (all executable).  Proofs are in proofs/CParseProofs.v.

   table   : binary levels from tightest to loosest (associativity flag + operator spellings),
             assignment operators, unary prefix operators.  The conditional level sits between
             the loosest binary level and the assignment level, as in C11.
   print   : minimal parentheses according to the table.
   parse   : precedence climbing generated from the table, total via fuel.
   Levels  : 0 = unary level (leaves, prefix operators, parenthesised expressions),
             1..n = binary levels (1 tightest), n+1 = conditional, n+2 = assignment. *)
From Coq Require Import List String Bool Arith.
From RZ.gen Require Import GrammarTables.
Import ListNotations.
Local Open Scope string_scope.
Local Open Scope list_scope.
Local Open Scope nat_scope.

Inductive leaf := LId (s : string) | LNum (s : string).
Definition leaf_eq_dec : forall a b : leaf, {a = b} + {a <> b}.
Proof. decide equality; apply string_dec. Defined.

Inductive token := TLeaf (l : leaf) | TOp (s : string) | TLP | TRP | TQ | TColon.
Definition token_eq_dec : forall a b : token, {a = b} + {a <> b}.
Proof. decide equality; [apply leaf_eq_dec | apply string_dec]. Defined.

Inductive rexpr :=
| ELeaf (l : leaf)
| EUn (op : string) (a : rexpr)
| EBin (op : string) (a b : rexpr)
| ECond (c a b : rexpr)
| EAsg (op : string) (l r : rexpr).

Fixpoint size (e : rexpr) : nat :=
  match e with
  | ELeaf _ => 1
  | EUn _ a => 1 + size a
  | EBin _ a b => 1 + size a + size b
  | ECond c a b => 1 + size c + size a + size b
  | EAsg _ l r => 1 + size l + size r
  end.

Record table := mkTable {
  t_bin : list (bool * list string);   (* tightest first; true = right associative *)
  t_asg : list string;
  t_un  : list string }.

Definition mem (s : string) (l : list string) : bool := existsb (String.eqb s) l.

Definition nbin (t : table) : nat := List.length (t_bin t).
Definition lv_cond (t : table) : nat := S (nbin t).
Definition lv_top (t : table) : nat := S (S (nbin t)).

Fixpoint find_bin (ls : list (bool * list string)) (k : nat) (s : string) : option (nat * bool) :=
  match ls with
  | [] => None
  | (ra, ops) :: ls' => if mem s ops then Some (k, ra) else find_bin ls' (S k) s
  end.
Definition bin_level (t : table) (s : string) : option (nat * bool) := find_bin (t_bin t) 1 s.

(* well-formed table: no assignment operator is also a binary operator (tokens are already separated, so
   there is no prefix issue; a binary operator listed at two levels is harmless because printer and parser
   use the same first-match lookup, see table_nodup for the stronger sanity check) *)
Definition wf_table (t : table) : bool :=
  forallb (fun s => match bin_level t s with None => true | Some _ => false end) (t_asg t).

Fixpoint nodupb (l : list string) : bool :=
  match l with [] => true | x :: r => negb (mem x r) && nodupb r end.
Definition table_nodup (t : table) : bool :=
  nodupb (List.concat (map snd (t_bin t)) ++ t_asg t) && nodupb (t_un t).

Definition level (t : table) (e : rexpr) : nat :=
  match e with
  | ELeaf _ | EUn _ _ => 0
  | EBin op _ _ => match bin_level t op with Some (k, _) => k | None => 0 end
  | ECond _ _ _ => lv_cond t
  | EAsg _ _ _ => lv_top t
  end.

Fixpoint wf_expr (t : table) (e : rexpr) : bool :=
  match e with
  | ELeaf _ => true
  | EUn op a => mem op (t_un t) && wf_expr t a
  | EBin op a b => match bin_level t op with Some _ => true | None => false end && wf_expr t a && wf_expr t b
  | ECond c a b => wf_expr t c && wf_expr t a && wf_expr t b
  | EAsg op l r => mem op (t_asg t) && wf_expr t l && wf_expr t r
  end.

(* printer with minimal parentheses *)
Definition paren (fits : bool) (ts : list token) : list token :=
  if fits then ts else TLP :: ts ++ [TRP].

(* pr t e m : print e in a context that accepts levels <= m *)
Fixpoint pr (t : table) (e : rexpr) (m : nat) : list token :=
  paren (level t e <=? m)
    match e with
    | ELeaf l => [TLeaf l]
    | EUn op a => TOp op :: pr t a 0
    | EBin op a b =>
        match bin_level t op with
        | Some (k, ra) => pr t a (if ra then k - 1 else k) ++ TOp op :: pr t b (if ra then k else k - 1)
        | None => pr t a 0 ++ TOp op :: pr t b 0
        end
    | ECond c a b => pr t c (nbin t) ++ TQ :: pr t a (lv_top t) ++ TColon :: pr t b (lv_cond t)
    | EAsg op l r => pr t l 0 ++ TOp op :: pr t r (lv_top t)
    end.

Definition print (t : table) (e : rexpr) : list token := pr t e (lv_top t).

(* parser: precedence climbing driven by the table *)
(* parse_at f max ts : longest expression of level <= max at the front of ts
   parse_prefix      : unary-level expression
   loop max fresh lhs: lhs has been read; extend it with operators of level <= max;
                       fresh = lhs is a just-read unary-level expression (may be an assignment target) *)
Fixpoint parse_at (t : table) (fuel max : nat) (ts : list token) {struct fuel} : option (rexpr * list token) :=
  match fuel with
  | 0 => None
  | S f =>
      match parse_prefix t f ts with
      | Some (u, r) => loop t f max true u r
      | None => None
      end
  end
with parse_prefix (t : table) (fuel : nat) (ts : list token) {struct fuel} : option (rexpr * list token) :=
  match fuel with
  | 0 => None
  | S f =>
      match ts with
      | TLeaf l :: r => Some (ELeaf l, r)
      | TLP :: r =>
          match parse_at t f (lv_top t) r with
          | Some (e, TRP :: r') => Some (e, r')
          | _ => None
          end
      | TOp s :: r =>
          if mem s (t_un t) then
            match parse_prefix t f r with
            | Some (a, r') => Some (EUn s a, r')
            | None => None
            end
          else None
      | _ => None
      end
  end
with loop (t : table) (fuel max : nat) (fresh : bool) (lhs : rexpr) (ts : list token) {struct fuel}
  : option (rexpr * list token) :=
  match fuel with
  | 0 => None
  | S f =>
      match ts with
      | TOp s :: r =>
          match bin_level t s with
          | Some (k, ra) =>
              if k <=? max then
                match parse_at t f (if ra then k else k - 1) r with
                | Some (rhs, r') => loop t f max false (EBin s lhs rhs) r'
                | None => None
                end
              else Some (lhs, ts)
          | None =>
              if fresh && (lv_top t <=? max) && mem s (t_asg t) then
                match parse_at t f (lv_top t) r with
                | Some (rhs, r') => loop t f max false (EAsg s lhs rhs) r'
                | None => None
                end
              else Some (lhs, ts)
          end
      | TQ :: r =>
          if lv_cond t <=? max then
            match parse_at t f (lv_top t) r with
            | Some (a, TColon :: r') =>
                match parse_at t f (lv_cond t) r' with
                | Some (b, r'') => loop t f max false (ECond lhs a b) r''
                | None => None
                end
            | _ => None
            end
          else Some (lhs, ts)
      | _ => Some (lhs, ts)
      end
  end.

Definition parse (t : table) (fuel : nat) (ts : list token) : option rexpr :=
  match parse_at t fuel (lv_top t) ts with
  | Some (e, []) => Some e
  | _ => None
  end.

(* fuel that always suffices for the printed form of an expression (proved in CParseProofs) *)
Definition fuel_for (ts : list token) : nat := 10 * List.length ts + 5.

(* The concrete C11 table: the binary levels, the conditional and the assignment operators come from the regenerated grammar
   tower; the prefix operators are the fixed list below.  A tower without a "conditional_expr" row would give an all-binary
   table with no assignment operators (CParseProofs.c11_table_is_tower excludes it for the tower at hand). *)
Fixpoint split_tower (tw : list (string * string * string * list string)) : list (bool * list string) * list string :=
  match tw with
  | [] => ([], [])
  | (name, assoc, _, ops) :: rest =>
      if String.eqb name "conditional_expr" then
        ([], match rest with (_, _, _, aops) :: _ => aops | [] => [] end)
      else
        let '(b, a) := split_tower rest in ((String.eqb assoc "right", ops) :: b, a)
  end.

Definition table_of_tower (tw : list (string * string * string * list string)) : table :=
  let '(b, a) := split_tower tw in mkTable b a ["~"; "-"; "!"; "+"].

Definition c11_table : table := table_of_tower tower.

Definition parse_c11 (ts : list token) : option rexpr := parse c11_table (fuel_for ts) ts.

Definition show_leaf (l : leaf) : string := match l with LId s => s | LNum s => s end.

(* fully parenthesised S-expression *)
Fixpoint show (e : rexpr) : string :=
  (match e with
   | ELeaf l => show_leaf l
   | EUn op a => "(" ++ op ++ " " ++ show a ++ ")"
   | EBin op a b => "(" ++ op ++ " " ++ show a ++ " " ++ show b ++ ")"
   | ECond c a b => "(?: " ++ show c ++ " " ++ show a ++ " " ++ show b ++ ")"
   | EAsg op l r => "(" ++ op ++ " " ++ show l ++ " " ++ show r ++ ")"
   end)%string.
