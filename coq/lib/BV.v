(* A bitvector is a width w : N and a representative x : Z read modulo 2^w (no type of its own).  Of the RzIL operations
   only CAST and the three shifts are here; the others are in sem/RzIL.v. *)
From Coq Require Import ZArith NArith List Bool Lia.
Local Open Scope Z_scope.

Definition pow2 (w : N) : Z := 2 ^ Z.of_N w.
Definition wrap (w : N) (x : Z) : Z := x mod pow2 w.
(* signed reading of an unsigned representative *)
Definition sval (w : N) (x : Z) : Z :=
  let u := wrap w x in if (w =? 0)%N then 0 else if u <? pow2 (w - 1) then u else u - pow2 w.
Definition msb (w : N) (x : Z) : bool := if (w =? 0)%N then false else pow2 (w - 1) <=? wrap w x.

(* RzIL CAST(w', fill, x) for x of width w: truncate, or extend with the fill bit *)
Definition bvcast (w w' : N) (fill : bool) (x : Z) : Z :=
  if (w' <=? w)%N then wrap w' x
  else if fill then wrap w x + (pow2 w' - pow2 w) else wrap w x.

(* shifts: the callers pass as n the unsigned value of the second operand (n >= 0 is not checked here); >= width saturates *)
Definition shl0 (w : N) (x n : Z) : Z := if n <? Z.of_N w then wrap w (wrap w x * 2 ^ n) else 0.
Definition shr0 (w : N) (x n : Z) : Z := if n <? Z.of_N w then wrap w x / 2 ^ n else 0.
Definition shra (w : N) (x n : Z) : Z :=
  if n <? Z.of_N w then wrap w (sval w x / 2 ^ n) else if msb w x then pow2 w - 1 else 0.

Lemma pow2_pos w : 0 < pow2 w.
Proof. unfold pow2. apply Z.pow_pos_nonneg; lia. Qed.
Lemma wrap_range w x : 0 <= wrap w x < pow2 w.
Proof. unfold wrap. apply Z.mod_pos_bound. apply pow2_pos. Qed.
Lemma wrap_idem w x : wrap w (wrap w x) = wrap w x.
Proof. unfold wrap. apply Z.mod_mod. pose proof (pow2_pos w). lia. Qed.
Lemma wrap_small w x : 0 <= x < pow2 w -> wrap w x = x.
Proof. unfold wrap. intros. apply Z.mod_small. auto. Qed.
