(* Ownership: a MEANING for the linearity checker `linear` of sem/CBody.v, and its soundness.

   Model.  Executing the emitted C body produces, in textual order, a list of EVENTS on C
   variable names:
     - `v = INIT;`  first evaluates INIT: every raw occurrence of a variable u in INIT is a
       CONSUME of u (the node held by u is handed to a constructor and gets a parent), every
       occurrence under DUP(..) (or &u) is a COPY of u; then, for DPure / DEffect declarations,
       one fresh node is ALLOCated for v.  DHexOp / DHexOpVal / DOther declarations own nothing.
     - `return RET;` consumes / copies likewise.
   Two readings of the event list are given and related:
     (1) counting:    consumes b x, copies b x  ->  no_double_free, no_leak, effects_single_use;
     (2) operational: a per-variable ownership automaton
                         Unalloc --alloc--> Live --consume--> Moved
         (consume on Moved = double free, consume/copy on Unalloc = use before allocation,
          alloc on anything but Unalloc = re-allocation), run over the whole event list.

   Results.
     linear_sound, linear_complete_strong, linear_iff
                                        linear b = true  <->  the three counting properties
                                        (linear_complete: the same with a NoDup hypothesis it does not use)
     run_ok_counts                      a fault-free run ending with every owned node Moved
                                        implies no_double_free and no_leak      (no hypothesis)
     linear_wf_run                      linear + wf_body + no_plugin_shadow  ->  the run is
                                        fault-free and ends with every owned node Moved
     linear_iff_run                     under wf_body and no_plugin_shadow: linear  <->  such a run, and
                                        effects_single_use
     use_after_alloc (consume_after_alloc, copy_after_alloc), nothing_before_alloc, alloc_once
                                        positional corollaries
     owned_reaches_ret, linear_reaches_ret
                                                        with no_sink, every owned node is transitively attached
                                        to the returned node (the tree the caller frees)
     shadow_*                           no_plugin_shadow is necessary: wf_body does not reject a
                                        declaration whose name is a plugin name.
     dup_*, sink_*                      what `linear` alone does not see: a re-declared name; a node
                                        consumed by a declaration that owns nothing.           *)
From Coq Require Import ZArith List Bool String Arith Lia.
From RZ.sem Require Import CBody.
Import ListNotations.
Local Open Scope string_scope.
Local Open Scope list_scope.

Inductive ekind := KAlloc | KConsume | KCopy.
Definition event := (ekind * string)%type.
Definition EAlloc (x : string) : event := (KAlloc, x).
Definition EConsume (x : string) : event := (KConsume, x).
Definition ECopy (x : string) : event := (KCopy, x).

Definition owns (k : dkind) : bool := match k with DPure | DEffect => true | _ => false end.

Definition event_of_use (u : string * bool) : event :=
  if snd u then ECopy (fst u) else EConsume (fst u).
Definition events_of_uses (us : list (string * bool)) : list event := map event_of_use us.

(* the initialiser is evaluated first, then the variable is bound to the fresh node *)
Definition exec_decl (d : decl) : list event :=
  events_of_uses (uses false (dinit d)) ++ (if owns (dk d) then [EAlloc (dname d)] else []).
Definition exec_decls (ds : list decl) : list event := flat_map exec_decl ds.
Definition exec_body (b : body) : list event :=
  exec_decls (decls b) ++ events_of_uses (uses false (ret b)).

(* projection of a run on one variable *)
Definition proj (x : string) (evs : list event) : list ekind :=
  map fst (filter (fun e => String.eqb (snd e) x) evs).

Definition is_consume (k : ekind) : bool := match k with KConsume => true | _ => false end.
Definition is_copy (k : ekind) : bool := match k with KCopy => true | _ => false end.
Definition nC (l : list ekind) : nat := List.length (filter is_consume l).
Definition nD (l : list ekind) : nat := List.length (filter is_copy l).

Definition consumes (b : body) (x : string) : nat := nC (proj x (exec_body b)).
Definition copies (b : body) (x : string) : nat := nD (proj x (exec_body b)).
Definition occurrences (b : body) (x : string) : nat := consumes b x + copies b x.

Definition owned (b : body) (x : string) : Prop :=
  exists d, In d (decls b) /\ owns (dk d) = true /\ dname d = x.
Definition borrowed (b : body) (x : string) : Prop := In (x, true) (params b).

Definition no_double_free (b : body) : Prop :=
  (forall x, owned b x -> consumes b x <= 1) /\ (forall x, borrowed b x -> consumes b x <= 1).
Definition no_leak (b : body) : Prop := forall x, owned b x -> consumes b x >= 1.
Definition effects_single_use (b : body) : Prop :=
  forall d, In d (decls b) -> dk d = DEffect ->
            occurrences b (dname d) = 1 /\ copies b (dname d) = 0.

Lemma proj_app : forall x l1 l2, proj x (l1 ++ l2) = proj x l1 ++ proj x l2.
Proof. intros. unfold proj. now rewrite filter_app, map_app. Qed.

Lemma proj_cons : forall x e l,
  proj x (e :: l) = if String.eqb (snd e) x then fst e :: proj x l else proj x l.
Proof. intros. unfold proj. cbn [filter]. destruct (String.eqb (snd e) x); reflexivity. Qed.

Lemma nC_app : forall l1 l2, nC (l1 ++ l2) = nC l1 + nC l2.
Proof. intros. unfold nC. now rewrite filter_app, app_length. Qed.
Lemma nD_app : forall l1 l2, nD (l1 ++ l2) = nD l1 + nD l2.
Proof. intros. unfold nD. now rewrite filter_app, app_length. Qed.

Lemma count_raw_app : forall x l1 l2, count_raw x (l1 ++ l2) = count_raw x l1 + count_raw x l2.
Proof. intros. unfold count_raw. now rewrite filter_app, app_length. Qed.
Lemma count_any_app : forall x l1 l2, count_any x (l1 ++ l2) = count_any x l1 + count_any x l2.
Proof. intros. unfold count_any. now rewrite filter_app, app_length. Qed.

Lemma In_proj : forall k x evs, In k (proj x evs) <-> In (k, x) evs.
Proof.
  intros k x evs. unfold proj. rewrite in_map_iff. split.
  - intros [[k' y] [Hk Hin]]. apply filter_In in Hin. destruct Hin as [Hin Heq].
    cbn in *. apply String.eqb_eq in Heq. now subst.
  - intros Hin. exists (k, x). split; [reflexivity|]. apply filter_In. split; [assumption|].
    cbn. apply String.eqb_refl.
Qed.

(* consumes and copies of x among the events of a list of uses, against the checker's two counts *)
Lemma counts_proj_uses : forall x us,
  nC (proj x (events_of_uses us)) = count_raw x us /\
  nC (proj x (events_of_uses us)) + nD (proj x (events_of_uses us)) = count_any x us.
Proof.
  intros x us. induction us as [|[y dup] t [IHc IHa]]; [split; reflexivity|].
  change (events_of_uses ((y, dup) :: t)) with (event_of_use (y, dup) :: events_of_uses t).
  rewrite proj_cons. unfold count_raw, count_any in *. cbn [filter fst snd].
  unfold event_of_use, ECopy, EConsume. cbn [fst snd].
  destruct dup; cbn [fst snd]; destruct (String.eqb y x); unfold nC, nD in *; cbn in *; lia.
Qed.

Lemma proj_alloc_part : forall x d,
  nC (proj x (if owns (dk d) then [EAlloc (dname d)] else [])) = 0 /\
  nD (proj x (if owns (dk d) then [EAlloc (dname d)] else [])) = 0.
Proof.
  intros. destruct (owns (dk d)); [|split; reflexivity].
  rewrite proj_cons. cbn. destruct (String.eqb (dname d) x); split; reflexivity.
Qed.

Lemma exec_decls_cons : forall d t, exec_decls (d :: t) = exec_decl d ++ exec_decls t.
Proof. reflexivity. Qed.

(* alloc events count for neither *)
Lemma counts_exec_decls : forall x ds,
  nC (proj x (exec_decls ds)) = count_raw x (flat_map (fun d => uses false (dinit d)) ds) /\
  nC (proj x (exec_decls ds)) + nD (proj x (exec_decls ds))
  = count_any x (flat_map (fun d => uses false (dinit d)) ds).
Proof.
  intros x ds. induction ds as [|d t [IHc IHa]]; [split; reflexivity|].
  rewrite exec_decls_cons. cbn [flat_map]. unfold exec_decl.
  rewrite !proj_app, !nC_app, !nD_app, count_raw_app, count_any_app.
  destruct (proj_alloc_part x d) as [H1 H2]. destruct (counts_proj_uses x (uses false (dinit d))) as [Hc Ha].
  lia.
Qed.

(* the model's counts ARE the checker's counts *)
Lemma consumes_count_raw : forall b x, consumes b x = count_raw x (all_uses b).
Proof.
  intros. unfold consumes, exec_body, all_uses.
  now rewrite proj_app, nC_app, count_raw_app, (proj1 (counts_exec_decls _ _)), (proj1 (counts_proj_uses _ _)).
Qed.

Lemma occurrences_count_any : forall b x, occurrences b x = count_any x (all_uses b).
Proof.
  intros. unfold occurrences, consumes, copies, exec_body, all_uses.
  rewrite proj_app, nC_app, nD_app, count_any_app, <- (proj2 (counts_exec_decls _ _)), <- (proj2 (counts_proj_uses _ _)).
  lia.
Qed.

Lemma linear_owned : forall b d, linear b = true -> In d (decls b) -> owns (dk d) = true ->
  count_raw (dname d) (all_uses b) = 1.
Proof.
  intros b d Hl Hin Ho. unfold linear in Hl. apply andb_true_iff in Hl. destruct Hl as [Hl _].
  rewrite forallb_forall in Hl. specialize (Hl d Hin). unfold owned_ok in Hl.
  destruct (dk d); try discriminate Ho.
  - now apply Nat.eqb_eq in Hl.
  - apply andb_true_iff in Hl. destruct Hl as [Hl _]. now apply Nat.eqb_eq in Hl.
Qed.

Lemma linear_borrowed : forall b x, linear b = true -> borrowed b x ->
  count_raw x (all_uses b) <= 1.
Proof.
  intros b x Hl Hin. unfold linear in Hl. apply andb_true_iff in Hl. destruct Hl as [_ Hl].
  rewrite forallb_forall in Hl. specialize (Hl (x, true) Hin). cbn in Hl. now apply Nat.leb_le in Hl.
Qed.

Theorem linear_sound : forall b, linear b = true ->
  no_double_free b /\ no_leak b /\ effects_single_use b.
Proof.
  intros b Hl. split; [split|split].
  - intros x [d [Hin [Ho Hn]]]. subst x. rewrite consumes_count_raw.
    rewrite (linear_owned b d Hl Hin Ho). lia.
  - intros x Hb. rewrite consumes_count_raw. now apply linear_borrowed.
  - intros x [d [Hin [Ho Hn]]]. subst x. rewrite consumes_count_raw.
    rewrite (linear_owned b d Hl Hin Ho). lia.
  - intros d Hin Hk.
    assert (Hraw : consumes b (dname d) = 1).
    { rewrite consumes_count_raw. apply linear_owned; try assumption. now rewrite Hk. }
    assert (Hany : occurrences b (dname d) = 1).
    { rewrite occurrences_count_any. unfold linear in Hl. apply andb_true_iff in Hl.
      destruct Hl as [Hl _]. rewrite forallb_forall in Hl. specialize (Hl d Hin).
      unfold owned_ok in Hl. rewrite Hk in Hl. apply andb_true_iff in Hl.
      destruct Hl as [_ Hl]. now apply Nat.eqb_eq in Hl. }
    split; [assumption|]. unfold occurrences in Hany. lia.
Qed.
Print Assumptions linear_sound.

(* No NoDup on the declared names is needed: the model, like the checker, identifies variables by name. *)
Theorem linear_complete_strong : forall b,
  no_double_free b -> no_leak b -> effects_single_use b -> linear b = true.
Proof.
  intros b [Hdf Hbr] Hlk Hef. unfold linear. apply andb_true_iff. split.
  - apply forallb_forall. intros d Hin. unfold owned_ok.
    destruct (dk d) eqn:Hk; try reflexivity.
    + assert (Ho : owned b (dname d)) by (exists d; rewrite Hk; auto).
      specialize (Hdf _ Ho). specialize (Hlk _ Ho). rewrite consumes_count_raw in *.
      apply Nat.eqb_eq. lia.
    + assert (Ho : owned b (dname d)) by (exists d; rewrite Hk; auto).
      specialize (Hdf _ Ho). specialize (Hlk _ Ho). destruct (Hef d Hin Hk) as [Hocc Hcp].
      rewrite occurrences_count_any in Hocc. rewrite consumes_count_raw in *.
      apply andb_true_iff. split; apply Nat.eqb_eq; lia.
  - apply forallb_forall. intros [x [|]] Hin; [|reflexivity]. cbn.
    apply Nat.leb_le. rewrite <- consumes_count_raw. now apply Hbr.
Qed.
Print Assumptions linear_complete_strong.

Theorem linear_complete : forall b, NoDup (map dname (decls b)) ->
  no_double_free b -> no_leak b -> effects_single_use b -> linear b = true.
Proof. intros b _. apply linear_complete_strong. Qed.
Print Assumptions linear_complete.

Corollary linear_iff : forall b,
  linear b = true <-> no_double_free b /\ no_leak b /\ effects_single_use b.
Proof.
  intros b. split; [apply linear_sound|]. intros [H1 [H2 H3]]. now apply linear_complete_strong.
Qed.
Print Assumptions linear_iff.

(* The operational reading: every variable is in one state of the ownership automaton; an event moves the
   state of its variable, or faults. *)
Inductive vstate :=
| Untracked   (* not an owned node: plugin names, HexOp handles, non-pure parameters, ... *)
| Unalloc     (* an owned variable whose declaration has not been executed yet *)
| Live        (* holds a node that has no parent yet *)
| Moved.      (* its node has been handed to a parent (or returned) *)

Inductive fault := UseBeforeAlloc (x : string) | DoubleFree (x : string) | ReAlloc (x : string).
Inductive result := OK (s : string -> vstate) | Err (f : fault).

Definition vstep (v : vstate) (k : ekind) : option vstate :=
  match k, v with
  | KAlloc, Unalloc => Some Live
  | KAlloc, _ => None
  | KConsume, Untracked => Some Untracked
  | KConsume, Live => Some Moved
  | KConsume, _ => None
  | KCopy, Unalloc => None
  | KCopy, w => Some w           (* copying a Moved node is fine: builders do not free *)
  end.

Definition fault_of (v : vstate) (k : ekind) (x : string) : fault :=
  match k, v with
  | KAlloc, _ => ReAlloc x
  | KConsume, Moved => DoubleFree x
  | _, _ => UseBeforeAlloc x
  end.

Definition state := string -> vstate.
Definition upd (s : state) (x : string) (v : vstate) : state :=
  fun y => if String.eqb y x then v else s y.

Definition step (s : state) (e : event) : result :=
  match vstep (s (snd e)) (fst e) with
  | Some v => OK (upd s (snd e) v)
  | None => Err (fault_of (s (snd e)) (fst e) (snd e))
  end.

Fixpoint run (s : state) (evs : list event) : result :=
  match evs with
  | [] => OK s
  | e :: t => match step s e with OK s' => run s' t | Err f => Err f end
  end.

(* the automaton of one variable over the events on that variable; a run of the whole state is the product
   of these (run_proj, run_complete) *)
Fixpoint vrun (v : vstate) (ks : list ekind) : option vstate :=
  match ks with
  | [] => Some v
  | k :: t => match vstep v k with Some v' => vrun v' t | None => None end
  end.

Definition owned_names (b : body) : list string :=
  map dname (filter (fun d => owns (dk d)) (decls b)).
Definition borrowed_names (b : body) : list string :=
  map fst (filter (fun p : string * bool => snd p) (params b)).

Definition init_state (b : body) : state :=
  fun x => if mem_str x (owned_names b) then Unalloc
           else if mem_str x (borrowed_names b) then Live else Untracked.

(* the final-state predicate: every owned node has been handed over, every borrowed
   parameter is still held or has been handed over once *)
Definition final_ok (b : body) (s : state) : Prop :=
  (forall x, owned b x -> s x = Moved) /\ (forall x, borrowed b x -> s x = Live \/ s x = Moved).

Lemma upd_same : forall s x v, upd s x v x = v.
Proof. intros. unfold upd. now rewrite String.eqb_refl. Qed.
Lemma upd_other : forall s x v y, y <> x -> upd s x v y = s y.
Proof. intros. unfold upd. apply String.eqb_neq in H. now rewrite H. Qed.

Lemma run_proj : forall evs s s', run s evs = OK s' ->
  forall x, vrun (s x) (proj x evs) = Some (s' x).
Proof.
  induction evs as [|[k y] t IH]; intros s s' Hrun x.
  - cbn in Hrun. injection Hrun as <-. reflexivity.
  - cbn [run] in Hrun. unfold step in Hrun. cbn [fst snd] in Hrun.
    destruct (vstep (s y) k) as [v|] eqn:Hv; [|discriminate].
    rewrite proj_cons. cbn [fst snd]. destruct (String.eqb y x) eqn:Hyx.
    + apply String.eqb_eq in Hyx. subst y. cbn [vrun]. rewrite Hv.
      rewrite <- (upd_same s x v) at 1. now apply IH.
    + apply String.eqb_neq in Hyx. rewrite <- (upd_other s y v x) by congruence. now apply IH.
Qed.

Lemma run_complete : forall evs s, (forall x, vrun (s x) (proj x evs) <> None) ->
  exists s', run s evs = OK s'.
Proof.
  induction evs as [|[k y] t IH]; intros s H.
  - eexists. reflexivity.
  - cbn [run]. unfold step. cbn [fst snd].
    pose proof (H y) as Hy. rewrite proj_cons in Hy. cbn [fst snd] in Hy.
    rewrite String.eqb_refl in Hy. cbn [vrun] in Hy.
    destruct (vstep (s y) k) as [v|] eqn:Hv; [|congruence].
    apply IH. intros x. destruct (string_dec x y) as [->|Hne].
    + now rewrite upd_same.
    + rewrite upd_other by assumption. specialize (H x). rewrite proj_cons in H.
      cbn [fst snd] in H. assert (Hf : String.eqb y x = false) by (apply String.eqb_neq; congruence).
      now rewrite Hf in H.
Qed.

Lemma vrun_app : forall l1 l2 v,
  vrun v (l1 ++ l2) = match vrun v l1 with Some v' => vrun v' l2 | None => None end.
Proof.
  induction l1 as [|k t IH]; intros; [reflexivity|]. cbn. destruct (vstep v k); [apply IH|reflexivity].
Qed.

Lemma vrun_untracked : forall l, ~ In KAlloc l -> vrun Untracked l = Some Untracked.
Proof.
  induction l as [|k t IH]; intros H; [reflexivity|].
  destruct k; cbn in *; [exfalso; auto| |]; apply IH; tauto.
Qed.

Lemma vrun_moved : forall l, ~ In KAlloc l -> nC l = 0 -> vrun Moved l = Some Moved.
Proof.
  induction l as [|k t IH]; intros H Hc; [reflexivity|].
  destruct k; cbn in *; [exfalso; auto|discriminate Hc|]. apply IH; [tauto|exact Hc].
Qed.

Lemma vrun_live : forall l, ~ In KAlloc l -> nC l <= 1 ->
  vrun Live l = Some (if Nat.eqb (nC l) 1 then Moved else Live).
Proof.
  induction l as [|k t IH]; intros H Hc; [reflexivity|].
  destruct k; cbn in H.
  - exfalso; auto.
  - change (nC (KConsume :: t)) with (S (nC t)) in *. assert (H0 : nC t = 0) by lia.
    rewrite H0. cbn. apply vrun_moved; [tauto|assumption].
  - change (nC (KCopy :: t)) with (nC t) in *. cbn [vrun vstep]. apply IH; [tauto|assumption].
Qed.

Definition moved (v : vstate) : nat := match v with Moved => 1 | _ => 0 end.

(* conservation law: on a tracked variable every consume moves the node exactly once
   (each successful vstep changes nC of the remaining events and `moved` by opposite amounts) *)
Lemma vrun_conservation : forall l v v', vrun v l = Some v' -> v <> Untracked ->
  v' <> Untracked /\ nC l + moved v = moved v'.
Proof.
  induction l as [|k t IH]; intros v v' H Hv.
  - cbn in H. injection H as <-. split; [assumption|reflexivity].
  - cbn [vrun] in H. destruct (vstep v k) as [w|] eqn:Hw; [|discriminate].
    destruct k, v; cbn in Hw; try discriminate Hw; try congruence; injection Hw as <-;
      (destruct (IH _ _ H) as [H1 H2]; [discriminate|]); split; try assumption;
      unfold nC in *; cbn in *; lia.
Qed.

Lemma mem_str_In : forall x l, mem_str x l = true <-> In x l.
Proof.
  intros. unfold mem_str. rewrite existsb_exists. split.
  - intros [y [Hin Heq]]. apply String.eqb_eq in Heq. now subst.
  - intros Hin. exists x. split; [assumption|apply String.eqb_refl].
Qed.

Lemma owned_names_spec : forall b x, In x (owned_names b) <-> owned b x.
Proof.
  intros. unfold owned_names, owned. rewrite in_map_iff. split.
  - intros [d [Hn Hin]]. apply filter_In in Hin. exists d. tauto.
  - intros [d [Hin [Ho Hn]]]. exists d. split; [assumption|]. apply filter_In. tauto.
Qed.

Lemma borrowed_names_spec : forall b x, In x (borrowed_names b) <-> borrowed b x.
Proof.
  intros. unfold borrowed_names, borrowed. rewrite in_map_iff. split.
  - intros [[y c] [Hn Hin]]. apply filter_In in Hin. cbn in *. destruct Hin as [Hin Hc]. now subst.
  - intros Hin. exists (x, true). split; [reflexivity|]. apply filter_In. now split.
Qed.

Lemma init_tracked : forall b x, owned b x \/ borrowed b x -> init_state b x <> Untracked.
Proof.
  intros b x H. unfold init_state.
  destruct (mem_str x (owned_names b)) eqn:Ho; [discriminate|].
  destruct (mem_str x (borrowed_names b)) eqn:Hb; [discriminate|].
  exfalso. destruct H as [H|H].
  - apply owned_names_spec, mem_str_In in H. congruence.
  - apply borrowed_names_spec, mem_str_In in H. congruence.
Qed.

(* A fault-free run that ends with every owned node handed over has no double free and no leak.
   No well-formedness hypothesis is needed. *)
Theorem run_ok_counts : forall b s,
  run (init_state b) (exec_body b) = OK s -> (forall x, owned b x -> s x = Moved) ->
  no_double_free b /\ no_leak b.
Proof.
  intros b s Hrun Hfin.
  assert (Hcons : forall x, owned b x \/ borrowed b x ->
                            consumes b x + moved (init_state b x) = moved (s x)).
  { intros x Hx. pose proof (run_proj _ _ _ Hrun x) as Hv.
    apply vrun_conservation in Hv; [tauto|now apply init_tracked]. }
  split; [split|].
  - intros x Hx. specialize (Hcons x (or_introl Hx)). destruct (s x); cbn in Hcons; lia.
  - intros x Hx. specialize (Hcons x (or_intror Hx)). destruct (s x); cbn in Hcons; lia.
  - intros x Hx. pose proof (Hcons x (or_introl Hx)) as Hc. rewrite (Hfin x Hx) in Hc.
    unfold init_state in Hc. apply owned_names_spec, mem_str_In in Hx. rewrite Hx in Hc.
    cbn in Hc. lia.
Qed.
Print Assumptions run_ok_counts.

Lemma wf_decls_cons : forall declared d t D, wf_decls declared (d :: t) = Some D ->
  mem_str (dname d) declared = false /\
  forallb (fun u => mem_str (fst u) declared || is_plugin_name (fst u)) (uses false (dinit d)) = true /\
  wf_decls (dname d :: declared) t = Some D.
Proof.
  intros declared d t D H. cbn [wf_decls] in H.
  match type of H with (if ?c then _ else _) = _ => destruct c eqn:Hc; [|discriminate] end.
  apply andb_true_iff in Hc. destruct Hc as [Hc _].
  apply andb_true_iff in Hc. destruct Hc as [Hc Hu].
  apply andb_true_iff in Hc. destruct Hc as [_ Hm].
  apply negb_true_iff in Hm. auto.
Qed.

Lemma mem_str_cons : forall x y l, mem_str x (y :: l) = String.eqb x y || mem_str x l.
Proof. reflexivity. Qed.

Lemma wf_decls_app : forall ds1 ds2 declared D, wf_decls declared (ds1 ++ ds2) = Some D ->
  exists m, wf_decls declared ds1 = Some m /\ wf_decls m ds2 = Some D.
Proof.
  induction ds1 as [|d t IH]; intros ds2 declared D H.
  - exists declared. auto.
  - rewrite <- app_comm_cons in H. cbn [wf_decls] in *.
    match type of H with (if ?c then _ else _) = _ => destruct c; [|discriminate] end. now apply IH.
Qed.

(* a name that is already declared is never re-declared, and stays declared *)
Lemma wf_declared_stable : forall ds declared D x, wf_decls declared ds = Some D ->
  mem_str x declared = true ->
  (forall d, In d ds -> dname d <> x) /\ mem_str x D = true.
Proof.
  induction ds as [|d t IH]; intros declared D x H Hm.
  - cbn in H. injection H as <-. split; [intros ? []|assumption].
  - apply wf_decls_cons in H. destruct H as [Hn [_ Ht]].
    assert (Hm' : mem_str x (dname d :: declared) = true)
      by (rewrite mem_str_cons, Hm; apply orb_true_r).
    destruct (IH _ _ _ Ht Hm') as [H1 H2]. split; [|assumption].
    intros d' [<-|Hin]; [congruence|now apply H1].
Qed.

Lemma wf_declares : forall ds declared D d, wf_decls declared ds = Some D -> In d ds ->
  mem_str (dname d) D = true.
Proof.
  induction ds as [|d0 t IH]; intros declared D d H Hin; [destruct Hin|].
  apply wf_decls_cons in H. destruct H as [_ [_ Ht]]. destruct Hin as [<-|Hin].
  - eapply wf_declared_stable; [exact Ht|]. rewrite mem_str_cons, String.eqb_refl. reflexivity.
  - eapply IH; eassumption.
Qed.

Lemma snd_event_of_use : forall u, snd (event_of_use u) = fst u.
Proof. intros [y [|]]; reflexivity. Qed.

(* x is silent in a list of events when its projection is empty: names that are neither declared nor plugin
   names do not occur in checked uses *)
Lemma uses_silent : forall us declared x,
  forallb (fun u => mem_str (fst u) declared || is_plugin_name (fst u)) us = true ->
  mem_str x declared = false -> is_plugin_name x = false ->
  proj x (events_of_uses us) = [].
Proof.
  induction us as [|u t IH]; intros declared x H Hm Hp; [reflexivity|].
  cbn [forallb] in H. apply andb_true_iff in H. destruct H as [Hu Ht].
  change (events_of_uses (u :: t)) with (event_of_use u :: events_of_uses t).
  rewrite proj_cons, snd_event_of_use. destruct (String.eqb (fst u) x) eqn:He.
  - apply String.eqb_eq in He. rewrite He, Hm, Hp in Hu. discriminate.
  - eapply IH; eassumption.
Qed.

(* a name that is neither declared so far, nor a plugin name, nor declared in ds is silent in ds *)
Lemma wf_silent : forall ds declared D x, wf_decls declared ds = Some D ->
  mem_str x declared = false -> is_plugin_name x = false ->
  (forall d, In d ds -> dname d <> x) ->
  proj x (exec_decls ds) = [].
Proof.
  induction ds as [|d t IH]; intros declared D x H Hm Hp Hnd; [reflexivity|].
  apply wf_decls_cons in H. destruct H as [_ [Hu Ht]].
  assert (Hne : dname d <> x) by (apply Hnd; now left).
  rewrite exec_decls_cons. unfold exec_decl at 1. rewrite !proj_app.
  rewrite (uses_silent _ _ _ Hu Hm Hp). cbn [app].
  assert (Ha : proj x (if owns (dk d) then [EAlloc (dname d)] else []) = []).
  { destruct (owns (dk d)); [|reflexivity]. rewrite proj_cons. cbn [fst snd EAlloc].
    apply String.eqb_neq in Hne. now rewrite Hne. }
  rewrite Ha. cbn [app]. eapply IH; try eassumption.
  - rewrite mem_str_cons, Hm. assert (Hf : String.eqb x (dname d) = false)
      by (apply String.eqb_neq; congruence). now rewrite Hf.
  - intros d' Hin. apply Hnd. now right.
Qed.

Lemma no_alloc_uses : forall x us, ~ In KAlloc (proj x (events_of_uses us)).
Proof.
  intros x us H. apply In_proj in H. unfold events_of_uses in H. apply in_map_iff in H.
  destruct H as [[y [|]] [He _]]; discriminate He.
Qed.

Lemma alloc_in_decls : forall x ds, In KAlloc (proj x (exec_decls ds)) ->
  exists d, In d ds /\ owns (dk d) = true /\ dname d = x.
Proof.
  intros x ds H. apply In_proj in H. unfold exec_decls in H. apply in_flat_map in H.
  destruct H as [d [Hin He]]. unfold exec_decl in He. apply in_app_iff in He. destruct He as [He|He].
  - exfalso. apply (no_alloc_uses x (uses false (dinit d))). now apply In_proj.
  - destruct (owns (dk d)) eqn:Ho; [|destruct He]. destruct He as [He|[]].
    exists d. injection He as He. auto.
Qed.

Lemma alloc_owned : forall b x, In KAlloc (proj x (exec_body b)) -> owned b x.
Proof.
  intros b x H. unfold exec_body in H. rewrite proj_app in H. apply in_app_iff in H. destruct H as [H|H].
  - now apply alloc_in_decls in H.
  - exfalso. exact (no_alloc_uses _ _ H).
Qed.

(* wf_body allows a declaration to take a plugin name (e.g. `RzILOpPure *hi = ...`) and
   simultaneously lets plugin names be used before any declaration; see shadow_body below.
   The following side condition closes that gap. *)
Definition no_plugin_shadow (b : body) : Prop :=
  forall d, In d (decls b) -> owns (dk d) = true -> is_plugin_name (dname d) = false.

Lemma wf_body_inv : forall b, wf_body b = true ->
  exists D, wf_decls (map fst (params b)) (decls b) = Some D /\
            forallb (fun u => mem_str (fst u) D || is_plugin_name (fst u)) (uses false (ret b)) = true.
Proof.
  intros b H. unfold wf_body in H.
  destruct (wf_decls (map fst (params b)) (decls b)) as [D|]; [|discriminate].
  apply andb_true_iff in H. exists D. tauto.
Qed.

(* shape of the projected run of an owned variable: nothing, then its alloc, then alloc-free *)
Lemma owned_shape : forall b x, wf_body b = true -> no_plugin_shadow b -> owned b x ->
  exists post, proj x (exec_body b) = KAlloc :: post /\ ~ In KAlloc post.
Proof.
  intros b x Hwf Hsh [d [Hin [Ho Hn]]].
  destruct (wf_body_inv b Hwf) as [D [HD _]].
  pose proof (Hsh d Hin Ho) as Hp. rewrite Hn in Hp.
  destruct (in_split _ _ Hin) as [ds1 [ds2 Hsplit]].
  rewrite Hsplit in HD. destruct (wf_decls_app _ _ _ _ HD) as [m [H1 H2]].
  pose proof (wf_decls_cons _ _ _ _ H2) as [Hm [Hu Ht]]. rewrite Hn in Hm, Ht.
  (* x is not a parameter *)
  assert (Hpar : mem_str x (map fst (params b)) = false).
  { destruct (mem_str x (map fst (params b))) eqn:E; [|reflexivity].
    destruct (wf_declared_stable _ _ _ x H1 E) as [_ E']. congruence. }
  (* x is not declared in ds1 *)
  assert (Hnd1 : forall d', In d' ds1 -> dname d' <> x).
  { intros d' Hin' Heq. pose proof (wf_declares _ _ _ _ H1 Hin') as E. rewrite Heq in E. congruence. }
  (* x is not declared in ds2 *)
  assert (Hnd2 : forall d', In d' ds2 -> dname d' <> x).
  { eapply wf_declared_stable; [exact Ht|]. rewrite mem_str_cons, String.eqb_refl. reflexivity. }
  unfold exec_body. rewrite Hsplit. unfold exec_decls. rewrite flat_map_app. cbn [flat_map].
  fold (exec_decls ds1). fold (exec_decls ds2). unfold exec_decl at 1. rewrite Ho, Hn.
  rewrite !proj_app. rewrite (wf_silent _ _ _ _ H1 Hpar Hp Hnd1).
  rewrite (uses_silent _ _ _ Hu Hm Hp). cbn [app].
  rewrite proj_cons. cbn [fst snd EAlloc]. rewrite String.eqb_refl. cbn [app].
  eexists. split; [reflexivity|]. intros Hal. apply in_app_iff in Hal. destruct Hal as [Hal|Hal].
  - apply alloc_in_decls in Hal. destruct Hal as [d' [Hin' [_ Hn']]]. exact (Hnd2 d' Hin' Hn').
  - exact (no_alloc_uses _ _ Hal).
Qed.

Lemma nC_cons_alloc : forall l, nC (KAlloc :: l) = nC l.
Proof. reflexivity. Qed.

Theorem linear_wf_run : forall b,
  linear b = true -> wf_body b = true -> no_plugin_shadow b ->
  exists s, run (init_state b) (exec_body b) = OK s /\ final_ok b s.
Proof.
  intros b Hl Hwf Hsh.
  assert (Hvar : forall x, exists v, vrun (init_state b x) (proj x (exec_body b)) = Some v /\
                                     (owned b x -> v = Moved) /\
                                     (borrowed b x -> v = Live \/ v = Moved)).
  { intros x. unfold init_state. destruct (mem_str x (owned_names b)) eqn:Ho.
    - (* owned *)
      apply mem_str_In, owned_names_spec in Ho.
      destruct (owned_shape b x Hwf Hsh Ho) as [post [Hshape Hna]].
      assert (Hc : nC post = 1).
      { destruct Ho as [d [Hin [Hod Hn]]]. pose proof (linear_owned b d Hl Hin Hod) as Hc.
        rewrite <- consumes_count_raw in Hc. unfold consumes in Hc.
        now rewrite Hn, Hshape, nC_cons_alloc in Hc. }
      exists Moved. rewrite Hshape. cbn [vrun vstep]. rewrite vrun_live by (auto; lia).
      rewrite Hc. cbn. auto.
    - assert (Hnown : ~ owned b x).
      { intros H. apply owned_names_spec, mem_str_In in H. congruence. }
      assert (Hna : ~ In KAlloc (proj x (exec_body b))) by (intros H; exact (Hnown (alloc_owned b x H))).
      destruct (mem_str x (borrowed_names b)) eqn:Hb.
      + apply mem_str_In, borrowed_names_spec in Hb.
        pose proof (linear_borrowed b x Hl Hb) as Hc. rewrite <- consumes_count_raw in Hc.
        unfold consumes in Hc. rewrite vrun_live by assumption.
        eexists. split; [reflexivity|]. split; [tauto|].
        intros _. destruct (Nat.eqb (nC (proj x (exec_body b))) 1); auto.
      + exists Untracked. split; [now apply vrun_untracked|]. split; [tauto|].
        intros H. apply borrowed_names_spec, mem_str_In in H. congruence. }
  destruct (run_complete (exec_body b) (init_state b)) as [s Hrun].
  { intros x. destruct (Hvar x) as [v [Hv _]]. congruence. }
  exists s. split; [assumption|].
  assert (Hs : forall x v, vrun (init_state b x) (proj x (exec_body b)) = Some v -> s x = v).
  { intros x v Hv. pose proof (run_proj _ _ _ Hrun x) as Hx. congruence. }
  split; intros x Hx; destruct (Hvar x) as [v [Hv [H1 H2]]]; rewrite (Hs x v Hv); auto.
Qed.
Print Assumptions linear_wf_run.

Lemma run_app : forall l1 l2 s s', run s (l1 ++ l2) = OK s' ->
  exists s1, run s l1 = OK s1 /\ run s1 l2 = OK s'.
Proof.
  induction l1 as [|e t IH]; intros l2 s s' H.
  - exists s. auto.
  - cbn [app run] in *. destruct (step s e) as [s0|]; [|discriminate]. now apply IH.
Qed.

(* only its alloc event moves a variable out of Unalloc *)
Lemma unalloc_stays : forall pre s s1 x, run s pre = OK s1 -> s x = Unalloc ->
  ~ In (EAlloc x) pre -> s1 x = Unalloc.
Proof.
  induction pre as [|[k y] t IH]; intros s s1 x H Hs Hn.
  - cbn in H. injection H as <-. assumption.
  - cbn [run] in H. unfold step in H. cbn [fst snd] in H.
    destruct (vstep (s y) k) as [v|] eqn:Hv; [|discriminate].
    eapply IH; [exact H| |intros Hin; apply Hn; now right].
    destruct (string_dec x y) as [->|Hne].
    + rewrite upd_same. rewrite Hs in Hv. destruct k; cbn in Hv; try discriminate.
      exfalso. apply Hn. now left.
    + now rewrite upd_other.
Qed.

Lemma event_eq_dec : forall a b : event, {a = b} + {a <> b}.
Proof. decide equality; [apply string_dec|decide equality]. Qed.

Lemma fault_free_use_after_alloc : forall k pre post s s' x,
  k <> KAlloc -> run s (pre ++ (k, x) :: post) = OK s' -> s x = Unalloc -> In (EAlloc x) pre.
Proof.
  intros k pre post s s' x Hk H Hs.
  destruct (in_dec event_eq_dec (EAlloc x) pre) as [Hin|Hnin]; [assumption|exfalso].
  apply run_app in H. destruct H as [s1 [H1 H2]].
  pose proof (unalloc_stays _ _ _ _ H1 Hs Hnin) as Hu.
  cbn [run] in H2. unfold step in H2. cbn [fst snd] in H2. rewrite Hu in H2.
  destruct k; cbn in H2; try discriminate. congruence.
Qed.

Lemma init_owned : forall b x, owned b x -> init_state b x = Unalloc.
Proof.
  intros b x H. unfold init_state. apply owned_names_spec, mem_str_In in H. now rewrite H.
Qed.

(* in the run of a checked body every event on an owned variable other than its alloc comes after the alloc *)
Lemma use_after_alloc : forall b,
  linear b = true -> wf_body b = true -> no_plugin_shadow b ->
  forall k pre post x, k <> KAlloc -> exec_body b = pre ++ (k, x) :: post -> owned b x -> In (EAlloc x) pre.
Proof.
  intros b Hl Hwf Hsh k pre post x Hk He Ho.
  destruct (linear_wf_run b Hl Hwf Hsh) as [s [Hrun _]]. rewrite He in Hrun.
  eapply fault_free_use_after_alloc; [exact Hk|exact Hrun|now apply init_owned].
Qed.

Theorem consume_after_alloc : forall b,
  linear b = true -> wf_body b = true -> no_plugin_shadow b ->
  forall pre post x, exec_body b = pre ++ EConsume x :: post -> owned b x -> In (EAlloc x) pre.
Proof. intros b Hl Hwf Hsh pre post x. apply (use_after_alloc b Hl Hwf Hsh KConsume). discriminate. Qed.
Print Assumptions consume_after_alloc.

Theorem copy_after_alloc : forall b,
  linear b = true -> wf_body b = true -> no_plugin_shadow b ->
  forall pre post x, exec_body b = pre ++ ECopy x :: post -> owned b x -> In (EAlloc x) pre.
Proof. intros b Hl Hwf Hsh pre post x. apply (use_after_alloc b Hl Hwf Hsh KCopy). discriminate. Qed.
Print Assumptions copy_after_alloc.

(* No variable at all is consumed before being allocated: a variable that does get an alloc
   event somewhere has no consume (or copy) event in front of it.  This one does not need
   `linear`. *)
Theorem nothing_before_alloc : forall b, wf_body b = true -> no_plugin_shadow b ->
  forall pre post x, exec_body b = pre ++ EAlloc x :: post ->
  forall k, ~ In (k, x) pre.
Proof.
  intros b Hwf Hsh pre post x He k Hin.
  assert (Ho : owned b x).
  { apply alloc_owned, In_proj. rewrite He. apply in_or_app. right. now left. }
  destruct (owned_shape b x Hwf Hsh Ho) as [post' [Hshape Hna]].
  rewrite He, proj_app in Hshape. apply In_proj in Hin.
  destruct (proj x pre) as [|k0 r] eqn:Hpre; [destruct Hin|].
  cbn [app] in Hshape. injection Hshape as -> Hr.
  apply Hna. rewrite <- Hr. apply in_or_app. right. rewrite proj_cons. cbn [snd fst EAlloc].
  rewrite String.eqb_refl. now left.
Qed.
Print Assumptions nothing_before_alloc.

Theorem alloc_once : forall b, wf_body b = true -> no_plugin_shadow b ->
  forall x, owned b x -> List.length (filter (fun k => match k with KAlloc => true | _ => false end)
                                             (proj x (exec_body b))) = 1.
Proof.
  intros b Hwf Hsh x Ho. destruct (owned_shape b x Hwf Hsh Ho) as [post [Hshape Hna]].
  rewrite Hshape. cbn [filter List.length]. f_equal. clear Hshape.
  induction post as [|k t IH]; [reflexivity|]. cbn [filter].
  destruct k; [exfalso; apply Hna; now left| |]; apply IH; intros H; apply Hna; now right.
Qed.
Print Assumptions alloc_once.

(* Under wf_body and no_plugin_shadow the checker is exactly the operational property together with
   effects_single_use, which no run sees: an effect consumed once and also DUPed runs to final_ok. *)
Theorem linear_iff_run : forall b, wf_body b = true -> no_plugin_shadow b ->
  (linear b = true <->
   (exists s, run (init_state b) (exec_body b) = OK s /\ final_ok b s) /\ effects_single_use b).
Proof.
  intros b Hwf Hsh. split.
  - intros Hl. split; [now apply linear_wf_run|]. now apply linear_sound.
  - intros [[s [Hrun [Hfin _]]] Hef]. destruct (run_ok_counts b s Hrun Hfin) as [H1 H2].
    now apply linear_complete_strong.
Qed.
Print Assumptions linear_iff_run.

(* "consumed at least once" only says the node got SOME parent.  The caller frees the tree of
   the returned node, so the real no-leak property is that every owned node is (transitively)
   attached to the returned one. *)
Inductive reaches_ret (b : body) : string -> Prop :=
| RR_ret : forall x, In (x, false) (uses false (ret b)) -> reaches_ret b x
| RR_decl : forall x d, In d (decls b) -> owns (dk d) = true ->
    In (x, false) (uses false (dinit d)) -> reaches_ret b (dname d) -> reaches_ret b x.

(* declarations that own nothing (DHexOp / DHexOpVal / DOther) do not swallow owned nodes *)
Definition no_sink (b : body) : Prop :=
  forall d, In d (decls b) -> owns (dk d) = false ->
  forall x, In (x, false) (uses false (dinit d)) -> ~ owned b x.

Lemma nC_pos_In : forall l, nC l >= 1 -> In KConsume l.
Proof.
  induction l as [|k t IH]; intros H; [cbn in H; lia|].
  destruct k; [right; apply IH; exact H|now left|right; apply IH; exact H].
Qed.

Lemma consume_in_uses : forall x us, In (EConsume x) (events_of_uses us) <-> In (x, false) us.
Proof.
  intros x us. unfold events_of_uses. rewrite in_map_iff. split.
  - intros [[y [|]] [He Hin]]; [discriminate He|]. injection He as ->. exact Hin.
  - intros Hin. exists (x, false). auto.
Qed.

Lemma consume_in_decls : forall x ds, In (EConsume x) (exec_decls ds) <->
  exists d, In d ds /\ In (x, false) (uses false (dinit d)).
Proof.
  intros x ds. unfold exec_decls. rewrite in_flat_map. split.
  - intros [d [Hin He]]. exists d. split; [assumption|]. unfold exec_decl in He.
    apply in_app_iff in He. destruct He as [He|He]; [now apply consume_in_uses|].
    destruct (owns (dk d)); [|destruct He]. destruct He as [He|[]]. discriminate He.
  - intros [d [Hin Hu]]. exists d. split; [assumption|]. unfold exec_decl. apply in_or_app.
    left. now apply consume_in_uses.
Qed.

Theorem owned_reaches_ret : forall b,
  wf_body b = true -> no_plugin_shadow b -> no_leak b -> no_sink b ->
  forall x, owned b x -> reaches_ret b x.
Proof.
  intros b Hwf Hsh Hlk Hns.
  (* by induction on a suffix of the declaration list: the consumer of a declared variable is
     the return expression or a LATER declaration *)
  assert (Hsuf : forall ds2 ds1, decls b = ds1 ++ ds2 ->
                 forall d, In d ds2 -> owns (dk d) = true -> reaches_ret b (dname d)).
  { induction ds2 as [|d0 t IH]; intros ds1 Hsplit d Hin Ho; [destruct Hin|].
    destruct Hin as [<-|Hin].
    2:{ apply (IH (ds1 ++ [d0])); [rewrite <- app_assoc; exact Hsplit|assumption|assumption]. }
    assert (Hown : owned b (dname d0)).
    { exists d0. split; [rewrite Hsplit; apply in_or_app; right; now left|auto]. }
    pose proof (Hlk _ Hown) as Hc. unfold consumes in Hc. apply nC_pos_In, In_proj in Hc.
    unfold exec_body in Hc. apply in_app_iff in Hc. destruct Hc as [Hc|Hc].
    2:{ apply RR_ret. now apply consume_in_uses. }
    apply consume_in_decls in Hc. destruct Hc as [d' [Hin' Hu]].
    assert (Ho' : owns (dk d') = true).
    { destruct (owns (dk d')) eqn:E; [reflexivity|]. exfalso. exact (Hns d' Hin' E _ Hu Hown). }
    apply (RR_decl b (dname d0) d' Hin' Ho' Hu).
    (* d' comes after d0: nothing happens to a variable before its alloc *)
    assert (Hex : exec_body b =
                  (exec_decls ds1 ++ events_of_uses (uses false (dinit d0)))
                  ++ EAlloc (dname d0) :: (exec_decls t ++ events_of_uses (uses false (ret b)))).
    { unfold exec_body. rewrite Hsplit. unfold exec_decls. rewrite flat_map_app. cbn [flat_map].
      unfold exec_decl at 2. rewrite Ho. rewrite <- !app_assoc. reflexivity. }
    pose proof (nothing_before_alloc b Hwf Hsh _ _ _ Hex KConsume) as Hnb.
    rewrite Hsplit in Hin'. apply in_app_iff in Hin'. destruct Hin' as [Hin'|[<-|Hin']].
    - exfalso. apply Hnb. apply in_or_app. left. apply consume_in_decls. eauto.
    - exfalso. apply Hnb. apply in_or_app. right. now apply consume_in_uses.
    - apply (IH (ds1 ++ [d0])); [rewrite <- app_assoc; exact Hsplit|assumption|assumption]. }
  intros x [d [Hin [Ho <-]]]. exact (Hsuf (decls b) [] eq_refl d Hin Ho).
Qed.
Print Assumptions owned_reaches_ret.

Corollary linear_reaches_ret : forall b,
  linear b = true -> wf_body b = true -> no_plugin_shadow b -> no_sink b ->
  forall x, owned b x -> reaches_ret b x.
Proof.
  intros b Hl Hwf Hsh Hns. apply owned_reaches_ret; try assumption. now apply linear_sound.
Qed.
Print Assumptions linear_reaches_ret.

(* RzILOpPure *a = ADD(VARL("x"), U32(1));
   RzILOpEffect *e1 = SETL("y", a);
   RzILOpEffect *e2 = SETL("z", DUP(p));            p is an RZ_BORROW parameter
   return SEQN(2, e1, e2);                                                          *)
Definition ex_good : body :=
  mkbody [("p", true)]
         [ mkdecl DPure "a" (SApp "ADD" [SApp "VARL" [SStr "x"]; SApp "U32" [SInt 1%Z]]);
           mkdecl DEffect "e1" (SApp "SETL" [SStr "y"; SVar "a"]);
           mkdecl DEffect "e2" (SApp "SETL" [SStr "z"; SApp "DUP" [SVar "p"]]) ]
         (SApp "SEQN" [SInt 2%Z; SVar "e1"; SVar "e2"]).

Example ex_good_linear : linear ex_good = true.
Proof. vm_compute. reflexivity. Qed.
Example ex_good_wf : wf_body ex_good = true.
Proof. vm_compute. reflexivity. Qed.
Example ex_good_events : exec_body ex_good =
  [EAlloc "a"; EConsume "a"; EAlloc "e1"; ECopy "p"; EAlloc "e2"; EConsume "e1"; EConsume "e2"].
Proof. vm_compute. reflexivity. Qed.
Example ex_good_run : exists s, run (init_state ex_good) (exec_body ex_good) = OK s /\
  s "a" = Moved /\ s "e1" = Moved /\ s "e2" = Moved /\ s "p" = Live /\ s "hi" = Untracked.
Proof. eexists. split; [vm_compute; reflexivity|]. vm_compute. auto. Qed.

(* `a` is used raw twice: ADD(a, a) -- the node gets two parents *)
Definition ex_bad : body :=
  mkbody []
         [ mkdecl DPure "a" (SApp "U32" [SInt 1%Z]);
           mkdecl DEffect "e1" (SApp "SETL" [SStr "y"; SApp "ADD" [SVar "a"; SVar "a"]]) ]
         (SVar "e1").

Example ex_bad_not_linear : linear ex_bad = false.
Proof. vm_compute. reflexivity. Qed.
Example ex_bad_consumes : consumes ex_bad "a" = 2.
Proof. vm_compute. reflexivity. Qed.
Example ex_bad_double_free : ~ no_double_free ex_bad.
Proof.
  intros [H _]. assert (Ho : owned ex_bad "a").
  { eexists. split; [left; reflexivity|]. split; reflexivity. }
  specialize (H "a" Ho). vm_compute in H. lia.
Qed.
Example ex_bad_run : run (init_state ex_bad) (exec_body ex_bad) = Err (DoubleFree "a").
Proof. vm_compute. reflexivity. Qed.

(* a leak: `a` is only ever DUPed *)
Definition ex_leak : body :=
  mkbody []
         [ mkdecl DPure "a" (SApp "U32" [SInt 1%Z]);
           mkdecl DEffect "e1" (SApp "SETL" [SStr "y"; SApp "DUP" [SVar "a"]]) ]
         (SVar "e1").
Example ex_leak_not_linear : linear ex_leak = false.
Proof. vm_compute. reflexivity. Qed.
Example ex_leak_run : exists s, run (init_state ex_leak) (exec_body ex_leak) = OK s /\ s "a" = Live.
Proof. eexists. split; vm_compute; reflexivity. Qed.

(* no_plugin_shadow is necessary.  wf_body accepts a declaration named like a plugin name
   and, because plugin names may be used anywhere, a use of it BEFORE the declaration:
       RzILOpPure *a = ADD(hi, U32(1));   RzILOpPure *hi = U32(1);   return SETL("x", a);
   Both checkers accept; the run consumes `hi` before it is allocated. *)
Definition shadow_body : body :=
  mkbody []
         [ mkdecl DPure "a" (SApp "ADD" [SVar "hi"; SApp "U32" [SInt 1%Z]]);
           mkdecl DPure "hi" (SApp "U32" [SInt 1%Z]) ]
         (SApp "SETL" [SStr "x"; SVar "a"]).
Example shadow_wf : wf_body shadow_body = true.
Proof. vm_compute. reflexivity. Qed.
Example shadow_linear : linear shadow_body = true.
Proof. vm_compute. reflexivity. Qed.
Example shadow_run : run (init_state shadow_body) (exec_body shadow_body) = Err (UseBeforeAlloc "hi").
Proof. vm_compute. reflexivity. Qed.

(* `linear` alone identifies variables by NAME: with a duplicated declaration it accepts a
   body in which one of the two nodes leaks.  wf_body rejects it, and so does the run. *)
Definition dup_body : body :=
  mkbody []
         [ mkdecl DPure "a" (SApp "U32" [SInt 1%Z]);
           mkdecl DPure "a" (SApp "U32" [SInt 2%Z]) ]
         (SApp "SETL" [SStr "x"; SVar "a"]).
Example dup_linear : linear dup_body = true.
Proof. vm_compute. reflexivity. Qed.
Example dup_wf : wf_body dup_body = false.
Proof. vm_compute. reflexivity. Qed.
Example dup_run : run (init_state dup_body) (exec_body dup_body) = Err (ReAlloc "a").
Proof. vm_compute. reflexivity. Qed.

(* `linear` counts ANY raw occurrence as the consuming use, including one inside a
   declaration that owns nothing (DOther / DHexOp).  The node of `a` below is "consumed" by
   `int k = foo(a);` and never reaches the returned tree; both checkers accept. *)
Definition sink_body : body :=
  mkbody []
         [ mkdecl DPure "a" (SApp "U32" [SInt 1%Z]);
           mkdecl DOther "k" (SApp "foo" [SVar "a"]) ]
         (SApp "EMPTY" []).
Example sink_linear : linear sink_body = true.
Proof. vm_compute. reflexivity. Qed.
Example sink_wf : wf_body sink_body = true.
Proof. vm_compute. reflexivity. Qed.
Example sink_leaks : ~ reaches_ret sink_body "a".
Proof.
  intros H. inversion H as [x Hu|x d Hin Ho Hu Hr]; subst.
  - destruct Hu.
  - destruct Hin as [<-|[<-|[]]]; [|discriminate Ho]. cbn in Hu. destruct Hu.
Qed.
