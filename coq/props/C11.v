(* C11 — Emitted text is a well-formed C body with sound companion metadata.
   wf_body (sem/CBody.v) is the decidable statement of "every identifier is declared exactly once and before its
   first use (in the declarations and in the returned expression), names are valid C identifiers, SEQN counts match".
   That a body ends in its return is part of the type `body`; the companion record is not in wf_body.  The consequences
   of wf_body for the run of the body are proved in sem/Own.v; the harness evaluates wf_body in Coq on every real emitted
   body (both layouts) and checks the companion record. *)
From Coq Require Import ZArith NArith List Bool String.
From RZ.sem Require Import RzIL CBody Own.
Import ListNotations.
Local Open Scope string_scope.
Local Open Scope list_scope.

Theorem C11_declared_before_use :
  forall b, wf_body b = true -> no_plugin_shadow b ->
  forall pre post x, exec_body b = pre ++ EAlloc x :: post -> forall k, ~ In (k, x) pre.
Proof. exact nothing_before_alloc. Qed.
Print Assumptions C11_declared_before_use.

(* a checker verdict on a concrete ill-formed body: a use of the undeclared variable Rt (the D8 shape) *)
Definition b_D8 : body :=
  mkbody [] [mkdecl DHexOp "Rd_op" (SApp "ISA2REG" [SVar "hi"; SChr "d"; SVar "false"]);
             mkdecl DEffect "op_ASSIGN_2" (SApp "WRITE_REG" [SVar "bundle"; SVar "Rd_op"; SVar "Rt"])]
         (SVar "op_ASSIGN_2").
Example C11_undeclared_use_is_rejected : wf_body b_D8 = false /\ wf_offenders b_D8 = ["undeclared:Rt"].
Proof. split; vm_compute; reflexivity. Qed.
