(* C06 — Value-producing side effects happen exactly once, in order, only when selected. *)
From Coq Require Import ZArith NArith List Bool String.
From RZ.sem Require Import RzIL CSem Diff.
From RZ.model Require Import Ast Types OpTables Lower Guards.
From RZ.gen Require Import Resources.
From RZ.proofs Require Import Witness.
Import ListNotations.
Local Open Scope string_scope.
Local Open Scope Z_scope.

Definition C06_statement : Prop := faithful_on (fun _ => True).

(* D4: { int32_t a = RsV; a++; RdV = a; } — the increment (value unused, top level) is hoisted in front
   of the initialisation: SEQN(seq(h_tmp0 = a; a = a + 1), a = Rs, Rd = a) *)
Definition w_D4 : cstmts :=
  SCons (SDecl [TS_intN true 32] "a" (Some (EOp (OReg "R" "s"))))
 (SCons (SExpr (EPost true (EOp (OIdent "a"))))
 (SCons (SExpr (EAssign AAssign (EOp (OReg "R" "d")) (EOp (OIdent "a")))) SNil)).
Theorem C06_refuted_hoisted : mistranslated w_D4 32.
Proof. right. vm_compute. reflexivity. Qed.
(* the model records the reason: one pending hybrid was left over and placed first *)
Example C06_hoisted_is_leftover :
  match tlower_info (cfg_insn 0) w_D4 with OK i => ti_leftover i = 1%nat | Err _ => False end.
Proof. vm_compute. reflexivity. Qed.

Theorem C06_refuted : ~ C06_statement.
Proof. apply (refute _ w_D4 32 I). exact C06_refuted_hoisted. Qed.
Print Assumptions C06_refuted.

(* positive instances on the FAITHFUL model: a postfix increment consumed by its statement, a
   statement-expression, and a statement-expression arm of ?: (executed only when selected) *)
Definition p_post : cstmts :=
  SCons (SDecl [TS_intN true 32] "a" (Some (EOp (OReg "R" "s"))))
 (SCons (SExpr (EAssign AAssign (EOp (OReg "R" "d")) (EBin BAdd (EPost true (EOp (OIdent "a"))) (EOp (OIdent "a"))))) SNil).
Definition p_stmtexpr : cstmts :=
  SCons (SExpr (EAssign AAssign (EOp (OReg "R" "d"))
     (EStmtExpr (SCons (SDecl [TS_intN true 32] "a" (Some (EBin BAdd (EOp (OReg "R" "s")) (EOp (OReg "R" "t"))))) SNil) (SExpr (EOp (OIdent "a")))))) SNil.
Definition p_arm : cstmts :=
  SCons (SExpr (EAssign AAssign (EOp (OReg "R" "d"))
     (ECond (EOp (OReg "R" "s")) (EStmtExpr (SCons (SExpr (EAssign AAssign (EOp (OReg "R" "e")) (EOp (ONum 1 false "")))) SNil) (SExpr (EOp (OReg "R" "t"))))
            (EOp (ONum 2 false ""))))) SNil.
Example C06_positive_examples :
  forallb (fun p => forallb (fun s => match verdict_of (cfg_insn 0) p s with Some Agree => true | _ => false end) [1; 2; 3; 4; 5; 6])
          [p_post; p_stmtexpr; p_arm] = true.
Proof. vm_compute. reflexivity. Qed.

(* "temporaries are always written before they are read".
   Decided per output by the syntactic must-analysis `tdefS` (sem/TmpCheck.v: every read of an h_tmpN local must be
   preceded, on every path, by a write; both arms of a branch; loop bodies may run zero times; bodies of known callees
   are analysed too), evaluated in Coq on every real emitted effect.  What a positive verdict MEANS, for every effect,
   every state, every fuel (proofs/TmpCheckProofs.v): the run never depends on what a not-yet-written temporary holds
   - non-interference between two states in which each such temporary is bound in both or in neither, at the same sort
   (stale_same_sorts).  The side condition is necessary: ESetL checks the sort of an old value
   (`unconditional_noninterference_false` in that file). *)
From RZ.sem Require Import TmpCheck.
From RZ.proofs Require Import TmpCheckProofs.
Theorem C06_temporaries_written_before_read : forall rw subs fuel n e D D' s1 s2,
  tdefS subs n D e = Some D' -> agree_off D s1 s2 -> stale_same_sorts D s1 s2 ->
  match exec rw subs fuel e s1, exec rw subs fuel e s2 with
  | Some s1', Some s2' => agree_off D' s1' s2' /\ stale_same_sorts D' s1' s2'
  | None, None => True
  | _, _ => False
  end.
Proof. exact tdefS_noninterference. Qed.
Print Assumptions C06_temporaries_written_before_read.
(* removing every stale temporary from the start state changes nothing a successful run can observe *)
Theorem C06_stale_temporaries_are_irrelevant : forall rw subs fuel n e D D' s s',
  tdefS subs n D e = Some D' -> exec rw subs fuel e s = Some s' ->
  exists c', exec rw subs fuel e (clean D s) = Some c' /\ agree_off D' s' c'.
Proof. exact run_then_clean_run. Qed.
Print Assumptions C06_stale_temporaries_are_irrelevant.

(* what PostfixIncDec.il_exec emits (gen/OpTablesGen.v, regenerated by symbolic execution on every run) elaborates to the term the model
   assigns to the operand of a postfix ++ / --: INC / DEC of the operand's read at the width of its type *)
From RZ.sem Require Import CBody.
From RZ.gen Require Import OpTablesGen.
From RZ.proofs Require Import OpTablesProofs.
Theorem C06_postfix_new_value_is_the_compilers : forall op a b tself t0 t1 ib0 ic0 ib1 ic1 il0 v0, In op ["++"; "--"]%string ->
  elab_text a b (postfixincdec_text op tself t0 t1 ib0 ic0 ib1 ic1 il0 v0) = Some (PIncDec (String.eqb op "++") a (vt_w tself)).
Proof. exact postfixincdec_text_ok. Qed.
Print Assumptions C06_postfix_new_value_is_the_compilers.
