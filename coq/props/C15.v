(* C15 — Nothing in the source is silently dropped: translate it or raise. *)
From Coq Require Import ZArith NArith List Bool String.
From RZ.sem Require Import RzIL CSem Diff.
From RZ.model Require Import Ast Types OpTables Lower Guards.
From RZ.gen Require Import Resources.
From RZ.proofs Require Import Witness.
Import ListNotations.
Local Open Scope string_scope.
Local Open Scope Z_scope.

(* number of state-changing leaves of an effect *)
Fixpoint leaves (e : effect) : nat :=
  match e with
  | ESetL _ _ | EWriteReg _ _ | EStore _ _ | RzIL.ECall _ _ | EPlugin _ _ => 1
  | ESeq a b => leaves a + leaves b
  | EBranch _ t f => leaves t + leaves f
  | ERepeat _ b => leaves b
  | ENop | EEmpty => 0
  end.

(* accepted although a construct was dropped *)
Definition silently_dropped (p : cstmts) : Prop :=
  match tlower_info (cfg_insn 0) p with OK i => ti_dropped i = true | Err _ => False end.
Definition C15_statement : Prop := forall p, ~ silently_dropped p.

(* D7: { RdV = 1, ReV = 2; } — both register writes are declared, the instruction sequence is EMPTY() *)
Definition w_comma : cstmts :=
  SCons (SExpr (EComma (EAssign AAssign (EOp (OReg "R" "d")) (EOp (ONum 1 false ""))) (EAssign AAssign (EOp (OReg "R" "e")) (EOp (ONum 2 false ""))))) SNil.
Definition rejected (p : cstmts) : Prop := match tlower (cfg_insn 0) p with Err _ => True | OK _ => False end.
(* FIXED in /repo (fix: raise for comma expressions, labels, goto, break and continue): rejected.  cfg_before_fix is the
   faithful configuration with the last switch (fx_reject_dropped) off: under it the comma expression is dropped *)
Definition cfg_before_fix : config := with_fx (mkfx false true false true true false false false false) (cfg_insn 0).
Example C15_was_dropped_comma : match tlower_info cfg_before_fix w_comma with OK i => ti_dropped i = true /\ leaves (ti_eff i) = 0%nat | Err _ => False end.
Proof. vm_compute. auto. Qed.
Example C15_fixed_comma : rejected w_comma.
Proof. vm_compute. exact I. Qed.
(* { RdV = 1; goto foo; } — rejected (with the switch off the goto is dropped) *)
Definition w_goto : cstmts :=
  SCons (SExpr (EAssign AAssign (EOp (OReg "R" "d")) (EOp (ONum 1 false "")))) (SCons (SGoto "foo") SNil).
Example C15_fixed_goto : rejected w_goto.
Proof. vm_compute. exact I. Qed.
(* { RdV = RsV + 1; lbl: ReV = 2; } — rejected (with the switch off the labelled statement, a register write, is dropped) *)
Definition w_label : cstmts :=
  SCons (SExpr (EAssign AAssign (EOp (OReg "R" "d")) (EBin BAdd (EOp (OReg "R" "s")) (EOp (ONum 1 false "")))))
 (SCons (SLabel "lbl" (SExpr (EAssign AAssign (EOp (OReg "R" "e")) (EOp (ONum 2 false ""))))) SNil).
Example C15_fixed_label : rejected w_label.
Proof. vm_compute. exact I. Qed.

(* constructs the model rejects: while, do, switch, a call of an unknown function, indexing *)
Example C15_rejects_while_do_switch :
  rejected (SCons (SWhile (EOp (OReg "R" "s")) (SExpr (EAssign AAssign (EOp (OReg "R" "d")) (EOp (ONum 1 false ""))))) SNil)
  /\ rejected (SCons (SDo (SExpr (EAssign AAssign (EOp (OReg "R" "d")) (EOp (ONum 1 false "")))) (EOp (OReg "R" "s"))) SNil)
  /\ rejected (SCons (SSwitch (EOp (OReg "R" "s")) (SBlock SNil)) SNil)
  /\ rejected (SCons (SExpr (EAssign AAssign (EOp (OReg "R" "d")) (ECall "foo" (ECons (EOp (OReg "R" "s")) ENil)))) SNil)
  /\ rejected (SCons (SExpr (EAssign AAssign (EOp (OReg "R" "d")) (EIndex (EOp (OIdent "a")) (EOp (ONum 1 false ""))))) SNil).
Proof. repeat split; vm_compute; exact I. Qed.

(* The general theorems (proofs/NoDrop.v).
   For EVERY program and every configuration that has the "reject" repair on (so the faithful one:
   C15_faithful_has_the_switch): (1) a program that mentions an unsupported construct ANYWHERE - at any depth, in blocks,
   branches, loop parts, statement-expressions, ?: arms, call/macro/load/store arguments, casts, initialisers -
   is rejected; (2) an accepted program has no top-level item discarded by the final filter, provided no expression
   statement, at top level or inside nested blocks, is a string literal or a ?: with a string literal in an arm
   (has_string_stmt = false).  A bare string literal has no effect in C (on the real compiler `{ RdV = 1; "abc"; }` is
   accepted and the literal ignored); the hypothesis also excludes programs that are rejected anyway, such as
   `RsV ? "abc" : 2;`. *)
From RZ.proofs Require Import NoDrop.
Theorem C15_unsupported_rejected_everywhere : forall cfg prog,
  fx_reject_dropped (cfg_fx cfg) = true -> mentions_unsupported prog = true -> exists msg, tlower_info cfg prog = Err msg.
Proof. exact unsupported_rejected. Qed.
Print Assumptions C15_unsupported_rejected_everywhere.
Theorem C15_translated_or_rejected : forall cfg prog,
  fx_reject_dropped (cfg_fx cfg) = true -> has_string_stmt prog = false ->
  match tlower_info cfg prog with OK i => ti_dropped i = false | Err _ => True end.
Proof. exact translated_or_rejected. Qed.
Print Assumptions C15_translated_or_rejected.
Theorem C15_statement_for_current_tree : forall p, has_string_stmt p = false -> ~ silently_dropped p.
Proof. intros p H. exact (C15_all_programs 0 p H). Qed.
Print Assumptions C15_statement_for_current_tree.
Example C15_faithful_has_the_switch : fx_reject_dropped faithful = true. Proof. reflexivity. Qed.
