(* C05 — Statements take effect in source order under exactly C's conditions. *)
From Coq Require Import ZArith NArith List Bool String.
From RZ.sem Require Import RzIL CSem Diff.
From RZ.model Require Import Ast Types OpTables Lower Guards.
From RZ.gen Require Import Resources.
From RZ.proofs Require Import Witness.
Import ListNotations.
Local Open Scope string_scope.
Local Open Scope Z_scope.

Definition C05_statement : Prop := faithful_on (fun _ => True).

(* D14: { uint8_t x = RsV; x += 1; RdV = x; } — the local changes width from 8 to 32 *)
Definition w_D14 : cstmts :=
  SCons (SDecl [TS_intN false 8] "x" (Some (EOp (OReg "R" "s"))))
 (SCons (SExpr (EAssign AAdd (EOp (OIdent "x")) (EOp (ONum 1 false ""))))
 (SCons (SExpr (EAssign AAssign (EOp (OReg "R" "d")) (EOp (OIdent "x")))) SNil)).
(* FIXED in /repo (fix: compound assignment converts the result to the type of its target) *)
Example C05_fixed_compound_narrow : forallb (fun s => match verdict_of (cfg_insn 0) w_D14 s with Some Agree => true | _ => false end) [32; 33; 34; 35; 46; 74] = true.
Proof. vm_compute. reflexivity. Qed.

(* D19: { RdV = RsV % RtV; } — unsigned MOD on signed operands *)
Definition w_D19 : cstmts :=
  SCons (SExpr (EAssign AAssign (EOp (OReg "R" "d")) (EBin BMod (EOp (OReg "R" "s")) (EOp (OReg "R" "t"))))) SNil.
Theorem C05_refuted_signed_remainder : mistranslated w_D19 46.
Proof. left. vm_compute. reflexivity. Qed.

Theorem C05_refuted : ~ C05_statement.
Proof. apply (refute _ w_D19 46 I). exact C05_refuted_signed_remainder. Qed.
Print Assumptions C05_refuted.

Example C05_repaired_witnesses :
  translated_ok_on (repaired (cfg_insn 0)) w_D14 32 /\ translated_ok_on (repaired (cfg_insn 0)) w_D19 46.
Proof. split; vm_compute; reflexivity. Qed.

(* non-vacuity of the positive side: an if/else is translated correctly by the FAITHFUL model on concrete states
   (both arms); p_for, a data-dependent for loop, is only defined: no example evaluates it *)
Definition p_if : cstmts :=
  SCons (SIf (EOp (OReg "R" "s")) (SExpr (EAssign AAssign (EOp (OReg "R" "d")) (EOp (ONum 1 false ""))))
             (Some (SExpr (EAssign AAssign (EOp (OReg "R" "d")) (EOp (ONum 2 false "")))))) SNil.
Definition p_for : cstmts :=
  SCons (SFor (SExpr (EAssign AAssign (EOp (OIdent "i")) (EOp (ONum 0 false ""))))
              (SExpr (EBin BLt (EOp (OIdent "i")) (EOp (OImm "u")))) (Some (EPost true (EOp (OIdent "i"))))
              (SExpr (EAssign AAssign (EOp (OReg "R" "x")) (EBin BAdd (EOp (OReg "R" "x")) (EOp (OIdent "i")))))) SNil.
Example C05_if_for_examples :
  forallb (fun s => match verdict_of (cfg_insn 0) p_if s with Some Agree => true | _ => false end) [1; 2; 3; 4; 5; 6; 7; 8] = true.
Proof. vm_compute. reflexivity. Qed.

(* The general theorem (proofs/StmtCorrect.v).
   For EVERY behaviour of the statement fragment `sfrags`, with all repairs on: the WHOLE transformer (tlower_info:
   statement lowering, immediate prologue, final sequence, register finalisation) succeeds, leaves nothing over, drops
   nothing, and the emitted effect, run from any IL state related to the C state, ends in an IL state related to the C
   state that ISO C prescribes: effects in source order, branches under C's condition, every state, no bound.
   The fragment (StmtCorrect.sfrag): `=` of a fragment expression to destination registers, register aliases, the explicit
   registers, immediates and locals; `+= -= *= &= |= ^= <<= >>=` on locals and on registers; declarations with and without
   initialiser (declared / has a value are tracked apart; the first assignment of EA, i, j, k declares it); an immediate
   as expression statement; memory stores, JUMP, cancel_slot, STORE_SLOT_CANCELLED, `;`, nop, blocks, if / if-else,
   `for (i = e; c; i++ / i--)` over a 32 bit local with a loop-free body (every trip count), sequences of any length and
   nesting depth.  Fragment expressions (ExprCorrect.pfrag): locals with a value, literals, register operands (incl. .new,
   destinations read back, aliases, the explicit registers, PC), immediates, casts, ~ - !, the binary operators, ?:, sizeof,
   typed loads `(T)mem_load_*`, bswap16/32/64, extract32/64, sextract64, deposit32/64.
   Outside the fragment: re-declared names (this premise is exact: D29), locals named like an immediate the behaviour uses
   (D31), while / do loops and nested loops, calls of sub-routines and ++ / -- inside expressions.  These stay decided per
   run (K2 + differential oracle). *)
From RZ.proofs Require Import SeqLaws ExprCorrect StmtCorrect.
Theorem C05_statements_correct_repaired :
  forall (cfg : config) (rw : regwidth) (IM : string -> bool) (ilsubs : subenv) (E : cenv) (csub : csubs) xi prog D' V',
  cfg_fx cfg = all_fixes -> cfg_params cfg = [] -> macs_std (cfg_macros cfg) -> subs_ext (cfg_subs cfg) -> csub_ext csub -> xi_ok xi ->
  im_ok IM -> sfrags rw IM [] [] prog D' V' ->
  exists eff h', tlower_info cfg prog = OK (mkti eff h' 0 false []) /\
    tlower cfg prog = OK (eff, h') /\ (cfg_hstart cfg <= h')%N /\
    forall cs ms fuel cs', srel IM E [] [] cs ms -> imm_fresh IM cs -> cexecs E csub xi fuel cs prog = Some cs' ->
      exists ms', runs rw ilsubs eff ms ms' /\ srel IM E D' V' cs' ms'.
Proof. exact tlower_correct. Qed.
Print Assumptions C05_statements_correct_repaired.
(* the fragment is inhabited: the example program of proofs/StmtCorrect.v lies in it *)
Example C05_fragment_inhabited : sfrags StmtCorrect.Example.rw imm_letter [] [] StmtCorrect.Example.prog StmtCorrect.Example.Vx StmtCorrect.Example.Vx.
Proof. exact StmtCorrect.Example.prog_in_fragment. Qed.

(* FAITHFUL model (the one tied to the code by K2), under the decidable guard "the translation of this behaviour does not
   depend on the repair switches": the same conclusion for the configuration the real compiler has today *)
Theorem C05_statements_correct_partial :
  forall (cfg : config) (rw : regwidth) (IM : string -> bool) (ilsubs : subenv) (E : cenv) (csub : csubs) xi prog D' V',
  cfg_params cfg = [] -> macs_std (cfg_macros cfg) -> subs_ext (cfg_subs cfg) -> csub_ext csub -> xi_ok xi ->
  im_ok IM -> sfrags rw IM [] [] prog D' V' ->
  tlower_info cfg prog = tlower_info (with_fx all_fixes cfg) prog ->
  exists eff h', tlower_info cfg prog = OK (mkti eff h' 0 false []) /\ (cfg_hstart cfg <= h')%N /\
    forall cs ms fuel cs', srel IM E [] [] cs ms -> imm_fresh IM cs -> cexecs E csub xi fuel cs prog = Some cs' ->
      exists ms', runs rw ilsubs eff ms ms' /\ srel IM E D' V' cs' ms'.
Proof.
  intros cfg rw IM ilsubs E csub xi prog D' V' Hp Hm Hs Hc Hx Him Hf Heq. rewrite Heq.
  (* with_fx only replaces the switches: on a configuration given by its fields the other projections compute *)
  pose proof (tlower_correct (with_fx all_fixes cfg) rw IM ilsubs E csub xi prog D' V') as T. destruct cfg.
  destruct (T eq_refl Hp Hm Hs Hc Hx Him Hf) as (eff & h' & H1 & _ & Hle & H3).
  exists eff, h'. auto.
Qed.
Print Assumptions C05_statements_correct_partial.

(* what the il_write / il_exec methods of the Effect classes Branch, ForLoop, Jump, MemStore, NOP, Empty and of Ternary, MemLoad emit
   (gen/OpTablesGen.v, regenerated from the Python sources by symbolic execution on every run: tools/vt/tr_optables.py) elaborates to exactly
   the effect / pure shapes model/Lower.v builds for if / for / JUMP / mem_store / nop / empty statements, ?: and loads:
   EBranch (cond_of c) t f, ERepeat (cond_of c) body, ESeq (ESetL "jump_flag" true) (ESetL "jump_target" t), EStore a v, ENop, EEmpty,
   PIte (cond_of c) a b, PLoad w a  (cond_of = cond_wrap (is BooleanOp or CompareOp)) *)
From RZ.sem Require Import CBody.
From RZ.gen Require Import OpTablesGen.
From RZ.proofs Require Import OpTablesProofs.
Theorem C05_statement_shapes_are_the_compilers :
  (forall c t f ib0 ic0 ib1 ic1 il0 v0 op tself t0 t1,
     elab_eff_text [("$0", BPure c); ("$1", BEff t); ("$2", BEff f)] (branch_text op tself t0 t1 ib0 ic0 ib1 ic1 il0 v0) = Some (EBranch (cond_wrap (ib0 || ic0) c) t f)) /\
  (forall c body ib0 ic0 ib1 ic1 il0 v0 op tself t0 t1,
     elab_eff_text [("$0", BPure c); ("$1", BEff body)] (forloop_text op tself t0 t1 ib0 ic0 ib1 ic1 il0 v0) = Some (ERepeat (cond_wrap (ib0 || ic0) c) body)) /\
  (forall t op tself t0 t1 ib0 ic0 ib1 ic1 il0 v0,
     elab_eff_text [("$0", BPure t)] (jump_text op tself t0 t1 ib0 ic0 ib1 ic1 il0 v0) = Some (ESeq (ESetL "jump_flag" (PBool true)) (ESetL "jump_target" t))) /\
  (forall a v op tself t0 t1 ib0 ic0 ib1 ic1 il0 v0,
     elab_eff_text [("$0", BPure a); ("$1", BPure v)] (memstore_text op tself t0 t1 ib0 ic0 ib1 ic1 il0 v0) = Some (EStore a v)) /\
  (forall op tself t0 t1 ib0 ic0 ib1 ic1 il0 v0,
     elab_eff_text [] (nop_text op tself t0 t1 ib0 ic0 ib1 ic1 il0 v0) = Some ENop /\ elab_eff_text [] (empty_text op tself t0 t1 ib0 ic0 ib1 ic1 il0 v0) = Some EEmpty) /\
  (forall c a b ib0 ic0 ib1 ic1 il0 v0 op tself t0 t1,
     match ternary_text op tself t0 t1 ib0 ic0 ib1 ic1 il0 v0 with Some s => elab (G3 c a b) noparam s | None => None end = Some (PIte (cond_wrap (ib0 || ic0) c) a b)) /\
  (forall a b tself op t0 t1 ib0 ic0 ib1 ic1 il0 v0, elab_text a b (memload_text op tself t0 t1 ib0 ic0 ib1 ic1 il0 v0) = Some (PLoad (vt_w tself) a)).
Proof.
  exact (conj branch_text_ok (conj forloop_text_ok (conj jump_text_ok (conj memstore_text_ok (conj nop_empty_text_ok (conj ternary_text_ok memload_text_ok)))))).
Qed.
Print Assumptions C05_statement_shapes_are_the_compilers.
