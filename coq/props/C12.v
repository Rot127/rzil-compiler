(* C12 — IL node ownership is linear: one consuming use, DUP for the rest.
   The checker `linear` (sem/CBody.v) is given a meaning and proved SOUND AND COMPLETE (sem/Own.v) for
   ALL bodies; the harness evaluates it in Coq on every real emitted body (both layouts).  The emission
   algorithm itself is not modelled at text level, so "every emitted body is linear" is decided per
   output, not by a theorem over all programs (partial). *)
From Coq Require Import ZArith NArith List Bool String.
From RZ.sem Require Import RzIL CBody Own.
Import ListNotations.
Local Open Scope string_scope.
Local Open Scope list_scope.

Theorem C12_linear_means_no_double_free_no_leak :
  forall b, linear b = true -> no_double_free b /\ no_leak b /\ effects_single_use b.
Proof. exact linear_sound. Qed.
Print Assumptions C12_linear_means_no_double_free_no_leak.

Theorem C12_checker_complete :
  forall b, no_double_free b -> no_leak b -> effects_single_use b -> linear b = true.
Proof. exact linear_complete_strong. Qed.
Print Assumptions C12_checker_complete.

(* operational reading: running the body (alloc / consume / copy events in textual order) ends without
   fault and with every owned node handed over exactly once (final_ok: its state is Moved).  That it ends up under
   the returned tree is Own.linear_reaches_ret, which needs no_sink in addition. *)
Theorem C12_linear_bodies_run_without_fault :
  forall b, linear b = true -> wf_body b = true -> no_plugin_shadow b ->
  exists s, run (init_state b) (exec_body b) = OK s /\ final_ok b s.
Proof. exact linear_wf_run. Qed.
Print Assumptions C12_linear_bodies_run_without_fault.

Theorem C12_consume_after_alloc :
  forall b, linear b = true -> wf_body b = true -> no_plugin_shadow b ->
  forall pre post x, exec_body b = pre ++ EConsume x :: post -> owned b x -> In (EAlloc x) pre.
Proof. exact consume_after_alloc. Qed.
