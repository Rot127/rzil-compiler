(* C01 — Shipped instruction behaviours are translated faithfully end to end.
   The quantifier "all 2181 bundled definitions" is met per run by the harness: every accepted
   corpus part is compared tree-for-tree with the model (K2) and run through the differential
   oracle.  Here: the statement, its refutation by one SHIPPED instruction (L2_loadrub_pbr), a second shipped instruction that is
   translated correctly (A2_combine_ll), the general theorems available for the model, and the rejection side. *)
From Coq Require Import ZArith NArith List Bool String.
From RZ.sem Require Import RzIL CSem Diff.
From RZ.model Require Import Ast Types OpTables Lower Guards.
From RZ.gen Require Import Resources.
From RZ.proofs Require Import Witness ExprCorrect.
Import ListNotations.
Local Open Scope string_scope.
Local Open Scope Z_scope.

Definition C01_statement : Prop := faithful_on (fun _ => True).

(* A2_combine_ll : {RdV = (((uint16_t)((RtV >> ((0) * 16)) & 0xffff))<<16) | ((uint16_t)((RsV >> ((0) * 16)) & 0xffff));}
   the left shift is done at 16 bits (D1): the upper half of Rd is always 0 *)
Definition half (r : string) : cexpr :=
  ECast [TS_intN false 16] (EBin BAnd (EBin BShr (EOp (OReg "R" r)) (EBin BMul (EOp (ONum 0 false "")) (EOp (ONum 16 false "")))) (EOp (ONum 65535 true ""))).
Definition A2_combine_ll : cstmts :=
  SCons (SExpr (EAssign AAssign (EOp (OReg "R" "d")) (EBin BOr (EBin BShl (half "t") (EOp (ONum 16 false ""))) (half "s")))) SNil.
(* FIXED in /repo (fix: integer promotion of the left operand of << and >>) *)
Example C01_fixed_A2_combine_ll : forallb (fun s => match verdict_of (cfg_insn 0) A2_combine_ll s with Some Agree => true | _ => false end) [32; 33; 34; 35; 46; 74] = true.
Proof. vm_compute. reflexivity. Qed.

(* L2_loadrub_pbr : {(EA = fbrev(RxV));  RxV = RxV + (MuV); ; RdV = (size1u_t)(mem_load_u8(EA));}
   fbrev calls revbit16, whose temporary h_tmp0 (16 bit) collides with the caller's h_tmp0 (32 bit): D5 *)
Definition L2_loadrub_pbr : cstmts :=
  SCons (SExpr (EAssign AAssign (EOp (OIdent "EA")) (ECall "fbrev" (ECons (EOp (OReg "R" "x")) ENil))))
 (SCons (SExpr (EAssign AAssign (EOp (OReg "R" "x")) (EBin BAdd (EOp (OReg "R" "x")) (EOp (OReg "M" "u")))))
 (SCons SEmpty
 (SCons (SExpr (EAssign AAssign (EOp (OReg "R" "d")) (ECast [TS_sizeN 1 false] (ELoad false 8 (ECons (EOp (OIdent "EA")) ENil))))) SNil))).
Theorem C01_refuted_L2_loadrub_pbr : mistranslated L2_loadrub_pbr 32.
Proof. right. vm_compute. reflexivity. Qed.

Theorem C01_refuted : ~ C01_statement.
Proof. apply (refute _ L2_loadrub_pbr 32 I). exact C01_refuted_L2_loadrub_pbr. Qed.
Print Assumptions C01_refuted.


(* the general theorem available for the value side (all depths, all operand values): see props/C02.v *)
Theorem C01_expressions_partial :
  forall (cfg : config) (rw : regwidth) (IM : string -> bool) (E : cenv) (csub : csubs) xi V e st,
  cfg_params cfg = [] -> macs_std (cfg_macros cfg) -> subs_ext (cfg_subs cfg) -> csub_ext csub -> xi_ok xi ->
  lst_ok IM V st -> pfrag rw IM V e ->
  lower_expr cfg e st = lower_expr (with_fx all_fixes cfg) e st ->
  exists pv st', lower_expr cfg e st = OK (IPure pv, st') /\ st_ext st st' /\ lst_ok IM V st' /\
    forall R rem, regs_le (st_regs st') R -> norem rem ->
    forall cs ms, rel IM E V cs ms -> imms_done IM E (st_imms st') cs ms ->
      exists ilv, eval rw ms [] (fin_pure R rem (pv_term pv)) = Some ilv /\ shape_pv pv ilv /\
        forall fuel cs' cv, ceval E csub xi fuel cs e = Some (cs', cv) -> cs' = cs /\ agrees pv cv ilv.
Proof.
  intros cfg rw IM E csub xi V e st Hp Hm Hs Hc Hx HV Hf Heq. rewrite Heq.
  apply (expr_correct_unconditional (with_fx all_fixes cfg) rw IM E csub xi V e st); auto.
Qed.
Print Assumptions C01_expressions_partial.

(* the 13 bundled sub-routines: the model accepts each body under the routine's own signature
   (the per-run K2 check compares these trees with the real compiled bodies) *)
Example C01_sub_routines_accepted :
  forallb (fun x => match tlower (snd (fst (snd x))) (snd (snd x)) with OK _ => true | Err _ => false end) sub_bodies = true.
Proof. vm_compute. reflexivity. Qed.

(* shipped behaviours covered by the end-to-end theorem:
   `covered h prog` (proofs/FragCheck.v) is a BOOLEAN the harness evaluates for every accepted shipped behaviour: the
   behaviour lies in the statement fragment (decided by a checker proved sound and complete for sfrags) and the REAL
   configuration translates it exactly like the repaired one.  For every such behaviour the whole-transformer simulation
   theorem holds for the configuration the real compiler has: *)
From RZ.proofs Require Import SeqLaws StmtCorrect FragCheck.
Theorem C01_covered_behaviours_correct : forall h prog, covered h prog = true ->
  exists eff h' D' V', tlower_info (cfg_insn h) prog = OK (mkti eff h' 0 false []) /\ (h <= h')%N /\
    forall ilsubs E csub xi cs ms fuel cs', csub_ext csub -> xi_ok xi ->
      srel (IM_of prog) E [] [] cs ms -> imm_fresh (IM_of prog) cs -> cexecs E csub xi fuel cs prog = Some cs' ->
      exists ms', runs (rw_of_prog prog) ilsubs eff ms ms' /\ srel (IM_of prog) E D' V' cs' ms'.
Proof. exact covered_correct. Qed.
Print Assumptions C01_covered_behaviours_correct.
