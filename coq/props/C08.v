(* C08 — Sub-routine calls follow the C calling convention and isolate the callee. *)
From Coq Require Import ZArith NArith List Bool String.
From RZ.sem Require Import RzIL CSem Diff.
From RZ.model Require Import Ast Types OpTables Lower Guards.
From RZ.gen Require Import Resources.
From RZ.proofs Require Import Witness.
Import ListNotations.
Local Open Scope string_scope.
Local Open Scope Z_scope.
Local Open Scope list_scope.

Definition C08_statement : Prop := faithful_on (fun _ => True).

(* D5: on a fresh compiler, { RdV = clo32(RsV) + clo32(RtV); } : clo32 calls clz32 whose own temporary is
   numbered h_tmp0, the caller's first temporary is h_tmp0 too: the second call overwrites the live result of the first *)
Definition w_D5 : cstmts :=
  SCons (SExpr (EAssign AAssign (EOp (OReg "R" "d"))
     (EBin BAdd (ECall "clo32" (ECons (EOp (OReg "R" "s")) ENil)) (ECall "clo32" (ECons (EOp (OReg "R" "t")) ENil))))) SNil.
Theorem C08_refuted_temporary_clobbered : mistranslated w_D5 32.
Proof. left. vm_compute. reflexivity. Qed.
(* the same program is translated correctly when the caller's numbering starts high enough (long-lived compiler):
   the result depends on the compilation history *)
Example C08_depends_on_counter : verdict_of (cfg_insn 7) w_D5 32 = Some Agree.
Proof. vm_compute. reflexivity. Qed.

Theorem C08_refuted : ~ C08_statement.
Proof. apply (refute _ w_D5 32 I). exact C08_refuted_temporary_clobbered. Qed.
Print Assumptions C08_refuted.

(* D15: `return` only assigns ret_val, execution continues.  Sub-routine  uint32_t er(uint32_t x) { if (x == 0) { return 1; } return 2; } *)
Definition er_ast : cstmts :=
  SCons (SIf (EBin BEq (EOp (OIdent "x")) (EOp (ONum 0 false ""))) (SReturn (Some (EOp (ONum 1 false "")))) None)
 (SCons (SReturn (Some (EOp (ONum 2 false "")))) SNil).
Definition er_cfg : config := mkcfg faithful subs0 macs0 [("x", ty_int false 32)] (Some (ty_int false 32)) 0.
Definition er_body : option effect := match tlower er_cfg er_ast with OK (e, _) => Some e | Err _ => None end.
Definition er_csub : csubs := fun f => if String.eqb f "er" then Some (mkcsub (Some (false, 32%N)) [("x", Some (false, 32%N))] er_ast) else csub_table f.
Definition er_ilsub : subenv := fun f => if String.eqb f "er" then option_map (fun e => (["x"], e)) er_body else ilsub_table f.
(* caller  { RdV = er(RsV); }  compiled with er registered *)
Definition er_caller : cstmts := SCons (SExpr (EAssign AAssign (EOp (OReg "R" "d")) (ECall "er" (ECons (EOp (OReg "R" "s")) ENil)))) SNil.
Definition er_caller_cfg : config := mkcfg faithful (mksub "er" (ty_int false 32) [ty_int false 32] :: subs0) macs0 (cfg_params (cfg_insn 0)) (cfg_ret (cfg_insn 0)) 0.
(* seed 1 gives Rs = 0: C returns 1, the emitted effect returns 2 *)
Theorem C08_refuted_early_return :
  match tlower er_caller_cfg er_caller with
  | OK (e, _) => run_one xi er_csub er_ilsub fuel0 er_caller e 1 = Differ
  | Err _ => False
  end.
Proof. vm_compute. reflexivity. Qed.

(* positive instances on the faithful model: calls of value-returning sub-routines (clz32 on a pair and on a single
   register, clz64, revbit16, clo32) with argument and return conversion *)
Definition call1 (f : string) (arg : cexpr) : cstmts := SCons (SExpr (EAssign AAssign (EOp (OReg "R" "dd")) (ECall f (ECons arg ENil)))) SNil.
Example C08_positive_examples :
  forallb (fun p => forallb (fun s => match verdict_of (cfg_insn 0) p s with Some Agree => true | _ => false end) [1; 2; 3; 32; 46])
          [call1 "clz32" (EOp (OReg "R" "ss")); call1 "clz32" (EOp (OReg "R" "s")); call1 "clz64" (EOp (OReg "R" "ss"));
           call1 "revbit16" (EOp (OReg "R" "s")); call1 "clo32" (EOp (OReg "R" "s"))] = true.
Proof. vm_compute. reflexivity. Qed.

(* cast_sub_routine_args / build_arg_list (Lower.lower_args), repaired configuration: for every list of argument values the expression
   theorem delivers (goodpv: what ExprCorrect.expr_inv returns for every expression of the fragment) and every list of integer
   parameter types, the call is accepted, no temporary is introduced, and the k-th argument term evaluates, in every machine state, to the
   C value of the k-th argument CONVERTED TO THE TYPE OF THE k-th PARAMETER (C11 6.5.2.2p7: as if by assignment) *)
From RZ.proofs Require Import ExprCorrect.
Theorem C08_arguments_converted_to_parameter_types :
  forall (subsigs : list subsig) (macs : list macsig) (cret : option vtype) (hstart : N) (rw : regwidth) (R : list (string * reginfo))
         (rem : list string) (ps : list pval) (pts : list vtype) (st : lstate),
  Forall goodpv ps -> Forall int_ptype pts -> List.length ps = List.length pts ->
  exists args, lower_args (mkcfg all_fixes subsigs macs [] cret hstart) (map IPure ps) pts st = OK ((args, []), st) /\
    forall ms k p pt v, nth_error ps k = Some p -> nth_error pts k = Some pt -> sem rw R rem ms p v ->
      exists t v', nth_error args k = Some (APure t) /\ eval rw ms [] (fin_pure R rem t) = Some v' /\ shape pt v' /\
                   cval_of pt v' = conv (vt_sg pt, vt_w pt) (cval_of (pv_ty p) v).
Proof. exact lower_args_ok. Qed.
Print Assumptions C08_arguments_converted_to_parameter_types.
(* the premises are satisfiable: two arguments (a 32 bit register value, a literal) passed to (int64_t, uint8_t) parameters *)
Example C08_arguments_nonvacuous :
  Forall int_ptype [ty_int true 64; ty_int false 8] /\
  Forall goodpv [mkpv (PVarL "x") (ty_int true 32) (KVar "x") []; mkpv (PBv true 32 5) (ty_int true 32) KExec []].
Proof.
  assert (okw 8 /\ okw 32 /\ okw 64) as (H8 & H32 & H64) by (unfold okw; tauto).
  split; repeat apply Forall_cons; try apply Forall_nil.
  - exists true, 64%N. auto.
  - exists false, 8%N. auto.
  - right. exists true, 32%N. repeat split; auto.
  - right. exists true, 32%N. repeat split; auto.
Qed.

(* what SubRoutine.il_read emits (gen/OpTablesGen.v, regenerated by symbolic execution on every run) elaborates to the term the model gives the
   temporary of a call: the shared local ret_val read back at the width and signedness of the DECLARED return type *)
From RZ.sem Require Import CBody.
From RZ.gen Require Import OpTablesGen.
From RZ.proofs Require Import OpTablesProofs.
Theorem C08_return_value_read_at_declared_type : forall ret op t0 t1 ib0 ic0 ib1 ic1 il0 v0,
  match subroutine_text op ret t0 t1 ib0 ic0 ib1 ic1 il0 v0 with Some s => elab [] noparam s | None => None end
  = Some (PSignExt (vt_sg ret) (if (vt_w ret =? 0)%N then 32%N else vt_w ret) (PVarL "ret_val")).
Proof. exact subroutine_read_text_ok. Qed.
Print Assumptions C08_return_value_read_at_declared_type.
