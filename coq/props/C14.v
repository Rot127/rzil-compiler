(* C14 — Compilation results do not depend on history or on earlier failures.
   What can influence a later compilation is the state that survives reset(): the obligations below
   are over the REGENERATED field / call tables (gen/MetaTables.v): every field of the holder and of the
   extension is cleared on every exit path of every entry point, except hybrid_op_count, whose only
   influence is the numbering of h_tmpN (a consistent renaming).  The per-run K-hist correspondence
   compares real results of random histories (failing inputs interleaved, two Compiler instances, both
   entry points) with the results of a fresh process, up to that renaming. *)
From Coq Require Import ZArith NArith List Bool String.
From RZ.model Require Import Ast Meta.
From RZ.gen Require Import MetaTables.
From RZ.proofs Require Import MetaProofs.
Import ListNotations.
Local Open Scope string_scope.

(* holder fields that survive ILOpsHolder.clear() *)
Definition survives_clear : list string := filter (fun x => negb (mem x holder_clear_fields)) holder_fields.
(* of those, the ones RZILTransformer.reset() clears itself *)
Definition cleared_by_reset (x : string) : bool := mem ("self.il_ops_holder." ++ x ++ ".clear()")%string transformer_reset_calls.

Theorem C14_only_the_counter_survives_reset :
  filter (fun x => negb (cleared_by_reset x)) survives_clear = ["hybrid_op_count"].
Proof. vm_compute. reflexivity. Qed.
Print Assumptions C14_only_the_counter_survives_reset.

Theorem C14_reset_is_complete :
  mem "self.ext.reset_flags()" transformer_reset_calls = true
  /\ mem "self.il_ops_holder.clear()" transformer_reset_calls = true
  /\ mem "self.imm_set_effect_list.clear()" transformer_reset_calls = true
  /\ mem "self.il_ops_holder.hybrid_effect_dict.clear()" transformer_reset_calls = true.
Proof. repeat split; vm_compute; reflexivity. Qed.

Theorem C14_every_entry_point_resets_on_every_path :
  entry_reset_transform_insn = "finally" /\ entry_reset_compile_c_stmt = "finally" /\ transform_insn_resets_before_each_part = true.
Proof. repeat split; vm_compute; reflexivity. Qed.

Theorem C14_extension_state_is_reset : forall f, reset_flags_model f = clean.
Proof. exact reset_establishes_clean. Qed.
Print Assumptions C14_extension_state_is_reset.

(* The counter's ONLY influence is a renaming (proofs/HShift.v).
   For EVERY configuration, every start value n of the hybrid counter (= every compilation history, since the counter is the
   only holder field that survives reset) and every program none of whose identifiers starts with h_tmp (no_htmp_ident), with
   n + (number of x++ / call / statement-expression nodes) <= 10^40: the whole
   transformer gives the same verdict (same error message) and, when it accepts, the same effect with h_tmp<k> renamed to
   h_tmp<k+n>, the same leftover/dropped facts, and a counter advanced by the same amount.  The side condition is necessary
   (htmp_ident_refuted; on the real compiler: D33) though stronger than needed (h_tmpx is excluded too); the bound is an
   artefact of the model's decimal printer. *)
From RZ.model Require Import Lower.
From RZ.gen Require Import Resources.
From RZ.proofs Require Import HShift.
Theorem C14_counter_shift_is_a_renaming : forall cfg n prog,
  no_htmp_ident prog = true -> (n + hyb_bound prog <= LIM)%N ->
  tlower_info (set_hstart cfg n) prog = rres n (tlower_info (set_hstart cfg 0) prog).
Proof. exact hshift_tlower_info. Qed.
Print Assumptions C14_counter_shift_is_a_renaming.
Theorem C14_history_independent_model : forall h p,
  no_htmp_ident p = true -> (h + hyb_bound p <= LIM)%N ->
  tlower_info (cfg_insn h) p = rres h (tlower_info (cfg_insn 0) p).
Proof. exact C14_history_independent. Qed.
Print Assumptions C14_history_independent_model.
