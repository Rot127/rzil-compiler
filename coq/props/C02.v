(* C02 — Integer operators follow C11 promotion, common-type and operator semantics.
   Objects: model/Lower.v (tied to RZILTransformer.py by K2), sem/CSem.v, sem/RzIL.v.
   The full statement is FALSE of the faithful model (D2; D1 and D13 are FIXED in /repo): refuted by a concrete witness;
   it is proved for the repaired model on the pure expression fragment and hence for the faithful
   model on every program whose translation does not depend on the repair switches. *)
From Coq Require Import ZArith NArith List Bool String.
From RZ.sem Require Import RzIL CSem Diff.
From RZ.model Require Import Ast Types OpTables Lower Guards.
From RZ.gen Require Import Resources.
From RZ.proofs Require Import Witness TypeRulesProofs.
Import ListNotations.
Local Open Scope string_scope.
Local Open Scope Z_scope.

Definition C02_statement : Prop := faithful_on (fun _ => True).

(* D1: { int16_t a = RsV; RdV = a << 20; } *)
Definition w_D1 : cstmts :=
  SCons (SDecl [TS_intN true 16] "a" (Some (EOp (OReg "R" "s"))))
 (SCons (SExpr (EAssign AAssign (EOp (OReg "R" "d")) (EBin BShl (EOp (OIdent "a")) (EOp (ONum 20 false ""))))) SNil).
(* FIXED in /repo (fix: integer promotion of the left operand of << and >>): the faithful model translates it correctly *)
Example C02_fixed_shift_promotion : forallb (fun s => match verdict_of (cfg_insn 0) w_D1 s with Some Agree => true | _ => false end) [32; 33; 34; 35; 46; 74] = true.
Proof. vm_compute. reflexivity. Qed.

(* D2: { RdV = !RsV; } — the effect writes an IL boolean into a 32-bit register: ill-sorted, stuck *)
Definition w_D2 : cstmts := SCons (SExpr (EAssign AAssign (EOp (OReg "R" "d")) (EUn ULNot (EOp (OReg "R" "s"))))) SNil.
Theorem C02_refuted_logical_not : mistranslated w_D2 32.
Proof. right. vm_compute. reflexivity. Qed.

(* D13: { int8_t a = RsV; uint8_t b = RtV; RdV = a < b; } — compared unsigned at 8 bit *)
Definition w_D13 : cstmts :=
  SCons (SDecl [TS_intN true 8] "a" (Some (EOp (OReg "R" "s"))))
 (SCons (SDecl [TS_intN false 8] "b" (Some (EOp (OReg "R" "t"))))
 (SCons (SExpr (EAssign AAssign (EOp (OReg "R" "d")) (EBin BLt (EOp (OIdent "a")) (EOp (OIdent "b"))))) SNil)).
(* FIXED in /repo (fix: integer promotion of comparison and ?: operands) *)
Example C02_fixed_compare_promotion : forallb (fun s => match verdict_of (cfg_insn 0) w_D13 s with Some Agree => true | _ => false end) [32; 33; 34; 35; 46; 74] = true.
Proof. vm_compute. reflexivity. Qed.

Theorem C02_refuted : ~ C02_statement.
Proof. apply (refute _ w_D2 32 I). exact C02_refuted_logical_not. Qed.
Print Assumptions C02_refuted.

(* the repaired model translates the three witnesses correctly on the same states *)
Example C02_repaired_witnesses :
  translated_ok_on (repaired (cfg_insn 0)) w_D1 32 /\ translated_ok_on (repaired (cfg_insn 0)) w_D2 32
  /\ translated_ok_on (repaired (cfg_insn 0)) w_D13 32.
Proof. repeat split; vm_compute; reflexivity. Qed.

(* type side of the property, about the REGENERATED rules (shared with C04) *)
Theorem C02_common_type_is_c11 : forall (h : PyHeap.heap) (a b : PyHeap.loc), (a < List.length h)%nat -> (b < List.length h)%nat ->
  let '(h', (ra, rb)) := RZ.gen.TypeRules.c11_cast h a b in
  PyHeap.rd h' ra = CTypesN.uac (PyHeap.rd h a) (PyHeap.rd h b) /\ PyHeap.rd h' rb = CTypesN.uac (PyHeap.rd h a) (PyHeap.rd h b)
  /\ PyHeap.same_old h h' /\ (List.length h <= List.length h')%nat.
Proof. exact c11_cast_spec. Qed.
Print Assumptions C02_common_type_is_c11.

From RZ.proofs Require Import ExprCorrect.

(* REPAIRED model: for every expression of the fragment ExprCorrect.pfrag - declared locals that have a value, literals,
   register operands (sources, read-write, destinations read back, pairs, .new, register aliases, the explicit registers
   P0-P3 / R29-R31, the program counter) and immediates, built from casts, ~ - !, + - * & | ^ << >>, the six comparisons,
   && ||, ?: (also with a literal condition), sizeof, typed loads `(T)mem_load_*` and the macros bswap16/32/64,
   extract32/64, sextract64, deposit32/64 - of ANY depth, and ALL values of the locals: the lowering is accepted, the IL term
   always evaluates (to a value of the sort its type says), and whenever C11 defines a value the IL
   value is that value and the model's result type is the C type. *)
Theorem C02_operators_correct_repaired :
  forall (cfg : config) (rw : regwidth) (IM : string -> bool) (E : cenv) (csub : csubs) xi V e st,
  cfg_fx cfg = all_fixes -> cfg_params cfg = [] -> macs_std (cfg_macros cfg) -> subs_ext (cfg_subs cfg) -> csub_ext csub -> xi_ok xi ->
  lst_ok IM V st -> pfrag rw IM V e ->
  exists pv st', lower_expr cfg e st = OK (IPure pv, st') /\ st_ext st st' /\ lst_ok IM V st' /\
    forall R rem, regs_le (st_regs st') R -> norem rem ->
    forall cs ms, rel IM E V cs ms -> imms_done IM E (st_imms st') cs ms ->
      exists ilv, eval rw ms [] (fin_pure R rem (pv_term pv)) = Some ilv /\ shape_pv pv ilv /\
        forall fuel cs' cv, ceval E csub xi fuel cs e = Some (cs', cv) -> cs' = cs /\ agrees pv cv ilv.
Proof. exact expr_correct_unconditional. Qed.
Print Assumptions C02_operators_correct_repaired.

(* FAITHFUL model (the one tied to the code by K2), under the decidable guard "the translation of e
   does not depend on the repair switches" *)
Theorem C02_operators_correct_partial :
  forall (cfg : config) (rw : regwidth) (IM : string -> bool) (E : cenv) (csub : csubs) xi V e st,
  cfg_params cfg = [] -> macs_std (cfg_macros cfg) -> subs_ext (cfg_subs cfg) -> csub_ext csub -> xi_ok xi ->
  lst_ok IM V st -> pfrag rw IM V e ->
  lower_expr cfg e st = lower_expr (with_fx all_fixes cfg) e st ->
  exists pv st', lower_expr cfg e st = OK (IPure pv, st') /\ st_ext st st' /\ lst_ok IM V st' /\
    forall R rem, regs_le (st_regs st') R -> norem rem ->
    forall cs ms, rel IM E V cs ms -> imms_done IM E (st_imms st') cs ms ->
      exists ilv, eval rw ms [] (fin_pure R rem (pv_term pv)) = Some ilv /\ shape_pv pv ilv /\
        forall fuel cs' cv, ceval E csub xi fuel cs e = Some (cs', cv) -> cs' = cs /\ agrees pv cv ilv.
Proof.
  intros cfg rw IM E csub xi V e st Hp Hm Hs Hc Hx HV Hf Heq. rewrite Heq.
  apply (expr_correct_unconditional (with_fx all_fixes cfg) rw IM E csub xi V e st); auto.
Qed.
Print Assumptions C02_operators_correct_partial.

(* model/OpTables.v (opcode per operator and operand type; what every theorem above reasons with) equals, on every operator of
   the compiler's enums, every operand type and every operand term, the elaboration of the text that the il_exec method of the
   corresponding Pure class emits: gen/OpTablesGen.v is regenerated from Pures/{BitOp,CompareOp,ArithmeticOp,BooleanOp}.py on every run
   (tools/vt/tr_optables.py, symbolic execution of the method body, fail-closed). *)
From RZ.sem Require Import CBody.
From RZ.gen Require Import OpTablesGen.
From RZ.proofs Require Import OpTablesProofs.
Theorem C02_operator_tables_are_the_compilers :
  (forall op ta a b tself t1 ib0 ic0 ib1 ic1 il0 v0, In op bitop_ops ->
     elab_text a b (bitop_text op tself ta t1 ib0 ic0 ib1 ic1 il0 v0) = Some (bitop_il_exec op ta a b)) /\
  (forall op ta tb a b tself ib0 ic0 ib1 ic1 il0 v0, In op compareop_ops -> cmp_float ta tb = false \/ op <> "!=" ->
     elab_text a b (compareop_text op tself ta tb ib0 ic0 ib1 ic1 il0 v0) = Some (cmp_il_exec op ta tb a b)) /\
  (forall op o ta tb a b tself ib0 ic0 ib1 ic1 il0 v0, In (op, o) arith_ops -> cmp_float ta tb = false \/ op <> "%" ->
     elab_text a b (arithmeticop_text op tself ta tb ib0 ic0 ib1 ic1 il0 v0) = Some (arith_il_exec o ta tb a b)) /\
  (forall op a b ib0 ic0 ib1 ic1 il0 v0 tself t0 t1, In op booleanop_ops ->
     elab_text a b (booleanop_text op tself t0 t1 ib0 ic0 ib1 ic1 il0 v0) = Some (boolop_il_exec op (ib0 || ic0) (ib1 || ic1) a b)).
Proof. exact (conj bitop_text_ok (conj compareop_text_ok (conj arithmeticop_text_ok booleanop_text_ok))). Qed.
Print Assumptions C02_operator_tables_are_the_compilers.
