(* C10 — Emitted effects are well-sorted under RzIL typing.
   wf_effect (sem/RzIL.v) checks every arm and loop body.  FALSE of the faithful model (D2): refuted by
   a witness; D14 is FIXED in /repo.  Soundness of the checker (a well-sorted effect never gets stuck on a sort
   error, and locals keep one sort) is proofs/SortSound.v. *)
From Coq Require Import ZArith NArith List Bool String.
From RZ.sem Require Import RzIL CSem Diff.
From RZ.model Require Import Ast Types OpTables Lower Guards.
From RZ.gen Require Import Resources.
From RZ.proofs Require Import Witness.
Import ListNotations.
Local Open Scope string_scope.
Local Open Scope Z_scope.

Definition special_sorts : lenv := [("EA", SBv 32); ("i", SBv 32); ("j", SBv 32); ("k", SBv 32); ("ret_val", SBv 64)]%N.
Definition well_sorted (c : config) (p : cstmts) : option bool :=
  match tlower c p with
  | OK (e, _) => Some (match wf_effect (rw_of (regs_ss xi p)) special_sorts e with Some _ => true | None => false end)
  | Err _ => None
  end.
Definition C10_statement : Prop := forall p, well_sorted (cfg_insn 0) p <> Some false.

(* D2: { RdV = !RsV; } writes an IL boolean to a 32-bit register *)
Definition w_D2 : cstmts := SCons (SExpr (EAssign AAssign (EOp (OReg "R" "d")) (EUn ULNot (EOp (OReg "R" "s"))))) SNil.
(* D14: { uint8_t x = RsV; x += 1; RdV = x; } : x is set at width 8 twice (without the fix: the second time at width 32) *)
Definition w_D14 : cstmts :=
  SCons (SDecl [TS_intN false 8] "x" (Some (EOp (OReg "R" "s"))))
 (SCons (SExpr (EAssign AAdd (EOp (OIdent "x")) (EOp (ONum 1 false ""))))
 (SCons (SExpr (EAssign AAssign (EOp (OReg "R" "d")) (EOp (OIdent "x")))) SNil)).
Theorem C10_refuted_bool_written : well_sorted (cfg_insn 0) w_D2 = Some false.
Proof. vm_compute. reflexivity. Qed.
(* FIXED in /repo (fix: compound assignment converts the result to the type of its target) *)
Example C10_fixed_local_keeps_width : well_sorted (cfg_insn 0) w_D14 = Some true.
Proof. vm_compute. reflexivity. Qed.
Theorem C10_refuted : ~ C10_statement.
Proof. intro H. apply (H w_D2). exact C10_refuted_bool_written. Qed.
Print Assumptions C10_refuted.

Example C10_repaired_witnesses :
  well_sorted (repaired (cfg_insn 0)) w_D2 = Some true /\ well_sorted (repaired (cfg_insn 0)) w_D14 = Some true.
Proof. split; vm_compute; reflexivity. Qed.

(* What the sort checker's verdict MEANS (proofs/SortSound.v).
   `wf_effect` / `sort_of` (sem/RzIL.v) are evaluated in Coq on every real emitted effect; these theorems, for EVERY
   effect and state, are why a positive verdict excludes the run-time sort errors of the IL validator/VM: a well-sorted
   pure evaluates, to a value of its sort; a local never holds a value of another sort than the one recorded; a
   well-sorted, definitely-assigned, loop-free effect runs to completion with any sufficient fuel. *)
From RZ.proofs Require Import SortSound.
Theorem C10_well_sorted_pure_evaluates : forall rw p G lets s lv t,
  env_ok G (locals s) -> env_ok lets lv -> sort_of rw G lets p = Some t ->
  exists v, eval rw s lv p = Some v /\ sort_of_val v = t.
Proof. intros rw p G lets s lv t. exact (sort_of_sound rw p G lets s lv t). Qed.
Print Assumptions C10_well_sorted_pure_evaluates.
Theorem C10_locals_keep_one_sort : forall rw subs fuel e G G' s s',
  wf_effect rw G e = Some G' -> calls_opaque subs e -> consistent G' (locals s) ->
  exec rw subs fuel e s = Some s' ->
  forall x t v, lookup x G' = Some t -> lookup x (locals s') = Some v -> sort_of_val v = t.
Proof. intros rw subs fuel e G G' s s'. exact (wf_effect_sort_consistency rw subs fuel e G G' s s'). Qed.
Print Assumptions C10_locals_keep_one_sort.
Theorem C10_well_sorted_effect_runs : forall rw subs e G G' H D D' s fuel,
  wf_effect rw G e = Some G' -> ext G' H -> consistent H (locals s) ->
  da_effect rw D e = Some D' -> env_ok D (locals s) ->
  no_repeat e = true -> calls_opaque subs e -> (depth e <= fuel)%nat ->
  exists s', exec rw subs fuel e s = Some s' /\ env_ok D' (locals s') /\ consistent H (locals s').
Proof. intros rw subs e G G' H D D' s fuel. exact (wf_effect_progress rw subs e G G' H D D' s fuel). Qed.
Print Assumptions C10_well_sorted_effect_runs.
