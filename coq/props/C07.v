(* C07 — Operands are bound to the right architectural resource, width and .new flag.
   The operand spellings form a finite set per class; the architectural table is sem/CSem.v's
   operand_lval (written from the Hexagon operand conventions, independent of the compiler); the
   compiler side is model/Lower.v's lower_operand + the tables of gen/Resources.v and gen/OpTablesGen.v (tied to
   the code by K2 on every spelling as read, written and read-after-write).  Explicit register names are
   covered by a sample (C07_explicit_examples), not by a statement over all numbers. *)
From Coq Require Import ZArith NArith List Bool String Ascii.
From RZ.sem Require Import RzIL CSem Diff.
From RZ.model Require Import Ast Types OpTables Lower Guards.
From RZ.gen Require Import Resources.
Import ListNotations.
Local Open Scope string_scope.
Local Open Scope list_scope.

Definition dummy_env : cenv := mkce (fun _ => 0%Z) (fun _ => 0%Z) (fun _ => 0%Z) 0%Z (fun _ => 0%Z).
(* architectural binding of a spelling: (operand handle, (signed, width)) *)
Definition arch_of (o : operand) : option (regop * cty) :=
  match operand_lval dummy_env xi cs0 o with
  | Some (LReg r t _) => Some (r, t)
  | _ => None
  end.
(* what the compiler (model) binds it to *)
Definition model_of (o : operand) : option (regop * cty) :=
  match lower_operand (cfg_insn 0) o (init_state (cfg_insn 0)) with
  | OK (IPure pv, s) =>
      match pv_kind pv with
      | KReg n => match lookup_reg_info n (st_regs s) with
                  | Some ri => Some (r_op ri, (vt_sg (r_ty ri), vt_w (r_ty ri)))
                  | None => None end
      | _ => None end
  | _ => None
  end.
Definition binding_eqb (a b : option (regop * cty)) : bool :=
  match a, b with
  | Some (r, (s, w)), Some (r', (s', w')) => regop_eqb r r' && Bool.eqb s s' && N.eqb w w'
  | _, _ => false
  end.

Definition classes := ["R"; "P"; "C"; "M"].
Definition letters := ["s"; "t"; "u"; "v"; "w"; "d"; "e"; "x"; "y"; "z"; "ss"; "tt"; "uu"; "vv"; "dd"; "xx"; "yy"].
Definition src_letters := ["s"; "t"; "u"; "v"; "w"; "ss"; "tt"; "uu"; "vv"].
Definition isa_operands : list operand :=
  flat_map (fun c => map (fun l => OReg c l) letters) classes
  ++ flat_map (fun c => map (fun l => ONewReg c l) src_letters) classes
  ++ map (fun l => ONewReg "N" l) ["s"; "t"; "u"; "v"; "w"].
Definition aliases := ["USR"; "PC"; "SP"; "LR"; "GP"; "FP"; "LC0"; "LC1"; "SA0"; "SA1"; "M0"; "M1"; "CS0"; "CS1"; "UPCYCLE"; "PKTCOUNT"; "UTIMER"; "UGP"].
Definition alias_operands : list operand := flat_map (fun a => [OAlias a false; OAlias a true]) aliases.

(* every ISA operand spelling of the finite grammar (register class x access letters x single/pair, .new, N registers)
   and every alias is bound to the architectural (slot, class, .new flag, signedness, width) *)
Theorem C07_operand_binding :
  forallb (fun o => binding_eqb (model_of o) (arch_of o)) (isa_operands ++ alias_operands) = true.
Proof. vm_compute. reflexivity. Qed.
Print Assumptions C07_operand_binding.

(* explicit registers: the number is the minimum of the digit groups (R31:30 -> 30), for a sample of names;
   the class string follows the first letter and the pair marker *)
Example C07_explicit_examples :
  map (fun n => explicit_reg_info n false) ["R31"; "P0"; "C9"; "M1"; "R31:30"; "C9:8"; "P3:0"]
  = [Some (RExpl 31 "HEX_REG_CLASS_INT_REGS" false, 32%N); Some (RExpl 0 "HEX_REG_CLASS_PRED_REGS" false, 8%N);
     Some (RExpl 9 "HEX_REG_CLASS_CTR_REGS" false, 32%N); Some (RExpl 1 "HEX_REG_CLASS_MOD_REGS" false, 32%N);
     Some (RExpl 30 "HEX_REG_CLASS_DOUBLE_REGS" false, 32%N); Some (RExpl 8 "HEX_REG_CLASS_CTR_REGS64" false, 32%N);
     Some (RExpl 0 "HEX_REG_CLASS_PRED_REGS64" false, 8%N)].
Proof. vm_compute. reflexivity. Qed.

(* immediates: the model's signedness table (OpTables.imm_signed) and the C side's (CSem.imm_signed_c) are the same
   function, signed exactly for the letters r R s S; the width (32) is not part of this statement *)
Theorem C07_immediates : forall l, imm_signed l = imm_signed_c l.
Proof. intros l. reflexivity. Qed.

(* get_value_type_from_reg_type and get_value_type_by_isa_imm are EXECUTED on their whole domains on every run (every ASCII letter as
   register class x every access terminal; every ASCII letter as immediate letter: gen/OpTablesGen.v, tools/vt/tr_optables.py);
   OpTables.reg_width / imm_signed, which the binding theorems above use, agree with every row *)
From RZ.gen Require Import OpTablesGen.
From RZ.proofs Require Import OpTablesProofs.
Theorem C07_width_tables_are_the_compilers :
  forallb (fun r : string * bool * option (bool * N) => let '(c, isp, t) := r in
             otype_eqb t (option_map (fun w => (true, if isp then (w * 2)%N else w)) (reg_width c))) reg_type_table = true /\
  forallb (fun r : string * option (bool * N) => otype_eqb (snd r) (Some (imm_signed (fst r), 32%N))) imm_type_table = true.
Proof. exact (conj reg_type_table_ok imm_type_table_ok). Qed.
Print Assumptions C07_width_tables_are_the_compilers.
