(* C09 — Compile-time evaluation agrees with run-time evaluation. *)
From Coq Require Import ZArith NArith List Bool String.
From RZ.sem Require Import RzIL CSem Diff.
From RZ.model Require Import Ast Types OpTables Lower Guards.
From RZ.gen Require Import Resources.
From RZ.proofs Require Import Witness.
Import ListNotations.
Local Open Scope string_scope.
Local Open Scope Z_scope.

Definition C09_statement : Prop := faithful_on (fun _ => True).

(* D6: { RdV = -1 < 1U; } folds to IL_TRUE (C: -1 converts to 4294967295, result 0); the boolean
   literal is then wrapped in NON_ZERO: ill-sorted *)
Definition w_D6 : cstmts :=
  SCons (SExpr (EAssign AAssign (EOp (OReg "R" "d")) (EBin BLt (EUn UMinus (EOp (ONum 1 false ""))) (EOp (ONum 1 false "U"))))) SNil.
Theorem C09_refuted_literal_compare : mistranslated w_D6 32.
Proof. right. vm_compute. reflexivity. Qed.
(* D6c: { RddV = 0x100000000; } is typed 32 bit *)
Definition w_D6c : cstmts := SCons (SExpr (EAssign AAssign (EOp (OReg "R" "dd")) (EOp (ONum 4294967296 true "")))) SNil.
Theorem C09_refuted_literal_type : mistranslated w_D6c 32.
Proof. left. vm_compute. reflexivity. Qed.

(* D8: { RdV = RtV; RdV = (1 ? RsV : RtV); } — discarding the dead arm removes the declaration of Rt,
   which the first statement still uses: the emitted body mentions an undeclared C variable *)
Definition w_D8 : cstmts :=
  SCons (SExpr (EAssign AAssign (EOp (OReg "R" "d")) (EOp (OReg "R" "t"))))
 (SCons (SExpr (EAssign AAssign (EOp (OReg "R" "d")) (ECond (EOp (ONum 1 false "")) (EOp (OReg "R" "s")) (EOp (OReg "R" "t"))))) SNil).
Theorem C09_refuted_dead_arm_removes_live_declaration :
  match tlower (cfg_insn 0) w_D8 with OK (e, _) => eff_has_raw "Rt" e = true | Err _ => False end.
Proof. vm_compute. reflexivity. Qed.

Theorem C09_refuted : ~ C09_statement.
Proof. apply (refute _ w_D6c 32 I). exact C09_refuted_literal_type. Qed.
Print Assumptions C09_refuted.

Example C09_repaired_witnesses :
  translated_ok_on (repaired (cfg_insn 0)) w_D6 32 /\ translated_ok_on (repaired (cfg_insn 0)) w_D6c 32.
Proof. split; vm_compute; reflexivity. Qed.

(* literal typing of the repaired model is the C11 table of sem/CSem.v, for ALL values and spellings *)
Theorem C09_literal_typing_repaired : forall v hex suffix,
  option_map (fun t => (vt_sg t, vt_w t)) (c11_literal_vtype v hex suffix) = literal_type v hex suffix.
Proof.
  intros v hex suffix. unfold c11_literal_vtype, literal_type. cbv zeta.
  (* the same search through the same candidates: what the model wraps around `find` is the identity on options *)
  assert (forall o : option (bool * N),
            option_map (fun t => (vt_sg t, vt_w t))
              match o with Some (sg, w) => Some (mkvt sg w false false false false false false false) | None => None end = o) as ->
    by (intros [[sg w]|]; reflexivity).
  destruct (String.eqb suffix ""), (String.eqb suffix "U"), (String.eqb suffix "LL"), (String.eqb suffix "ULL"), hex; reflexivity.
Qed.
Print Assumptions C09_literal_typing_repaired.

(* Compile-time evaluation inside expressions is covered by the expression theorem: for EVERY expression of the fragment -
   in particular every literal-only expression the compiler folds, at any depth, and every constant-condition ?: - the lowered
   term (folded or not) evaluates to the value and type C11 gives the unsimplified expression (all repairs on). *)
From RZ.proofs Require Import ExprCorrect.
Theorem C09_folding_agrees_with_evaluation_repaired :
  forall (cfg : config) (rw : regwidth) (IM : string -> bool) (E : cenv) (csub : csubs) xi V e st,
  cfg_fx cfg = all_fixes -> cfg_params cfg = [] -> macs_std (cfg_macros cfg) -> subs_ext (cfg_subs cfg) -> csub_ext csub -> xi_ok xi ->
  lst_ok IM V st -> pfrag rw IM V e ->
  exists pv st', lower_expr cfg e st = OK (IPure pv, st') /\ st_ext st st' /\ lst_ok IM V st' /\
    forall R rem, regs_le (st_regs st') R -> norem rem ->
    forall cs ms, rel IM E V cs ms -> imms_done IM E (st_imms st') cs ms ->
      exists ilv, eval rw ms [] (fin_pure R rem (pv_term pv)) = Some ilv /\ shape_pv pv ilv /\
        forall fuel cs' cv, ceval E csub xi fuel cs e = Some (cs', cv) -> cs' = cs /\ agrees pv cv ilv.
Proof. exact expr_correct_unconditional. Qed.
Print Assumptions C09_folding_agrees_with_evaluation_repaired.

(* the literal typing table of the FAITHFUL model (suffix -> type) is the compiler's: get_value_type_by_c_number executed on the
   suffix spellings on every run (gen/OpTablesGen.v) *)
From RZ.gen Require Import OpTablesGen.
From RZ.proofs Require Import OpTablesProofs.
Theorem C09_literal_suffix_table_is_the_compilers :
  forallb (fun r : string * option (bool * N) =>
             otype_eqb (snd r) (option_map (fun t => (vt_sg t, vt_w t)) (number_vtype (fst r)))) number_type_table = true.
Proof. exact number_type_table_ok. Qed.
Print Assumptions C09_literal_suffix_table_is_the_compilers.
