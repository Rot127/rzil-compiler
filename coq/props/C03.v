(* C03 — Casts and implicit conversions preserve the C value.
   D3 (the fill bit of a widening CAST is MSB only if BOTH types are signed) is FIXED in /repo; the statement is still FALSE of
   the faithful model (D29): refuted by witness, true of the repaired model on the witness.  For the repaired model casts
   at any depth are part of the expression fragment: C03_casts_correct_repaired is the expression theorem of
   proofs/ExprCorrect.v. *)
From Coq Require Import ZArith NArith List Bool String.
From RZ.sem Require Import RzIL CSem Diff.
From RZ.model Require Import Ast Types OpTables Lower Guards.
From RZ.gen Require Import Resources.
From RZ.proofs Require Import Witness.
Import ListNotations.
Local Open Scope string_scope.
Local Open Scope Z_scope.

Definition C03_statement : Prop := faithful_on (fun _ => True).

(* { int8_t a = RsV; RddV = (uint64_t)a; } *)
Definition w_D3 : cstmts :=
  SCons (SDecl [TS_intN true 8] "a" (Some (EOp (OReg "R" "s"))))
 (SCons (SExpr (EAssign AAssign (EOp (OReg "R" "dd")) (ECast [TS_intN false 64] (EOp (OIdent "a"))))) SNil).
(* FIXED in /repo (fix: a signed value widened to an unsigned type is sign extended) *)
Example C03_fixed_widening_fill : forallb (fun s => match verdict_of (cfg_insn 0) w_D3 s with Some Agree => true | _ => false end) [32; 33; 34; 35; 46; 74] = true.
Proof. vm_compute. reflexivity. Qed.

(* still open, D29: a declaration with initialiser of a name that an earlier (closed) block declared converts the initialiser through the
   OLD type:  { { int8_t x = 1; } { int32_t x = 300; RdV = x; } }  (the real compiler writes 44; in the IL semantics the local x is set at two widths) *)
Definition w_D29 : cstmts :=
  SCons (SBlock (SCons (SDecl [TS_intN true 8] "x" (Some (EOp (ONum 1 false "")))) SNil))
 (SCons (SBlock (SCons (SDecl [TS_intN true 32] "x" (Some (EOp (ONum 300 false ""))))
               (SCons (SExpr (EAssign AAssign (EOp (OReg "R" "d")) (EOp (OIdent "x")))) SNil))) SNil).
Theorem C03_refuted_redeclared_conversion : mistranslated w_D29 32.
Proof. right. vm_compute. reflexivity. Qed.

(* implicit conversion of ?: arms: { int8_t a = RsV; uint8_t b = RtV; RdV = RuV ? a : b; } *)
Definition w_D13c : cstmts :=
  SCons (SDecl [TS_intN true 8] "a" (Some (EOp (OReg "R" "s"))))
 (SCons (SDecl [TS_intN false 8] "b" (Some (EOp (OReg "R" "t"))))
 (SCons (SExpr (EAssign AAssign (EOp (OReg "R" "d")) (ECond (EOp (OReg "R" "u")) (EOp (OIdent "a")) (EOp (OIdent "b"))))) SNil)).
(* FIXED in /repo (fix: integer promotion of comparison and ?: operands) *)
Example C03_fixed_ternary_arms : forallb (fun s => match verdict_of (cfg_insn 0) w_D13c s with Some Agree => true | _ => false end) [32; 33; 34; 35; 46; 74] = true.
Proof. vm_compute. reflexivity. Qed.

Theorem C03_refuted : ~ C03_statement.
Proof. apply (refute _ w_D29 32 I). exact C03_refuted_redeclared_conversion. Qed.
Print Assumptions C03_refuted.

Example C03_repaired_witnesses :
  translated_ok_on (repaired (cfg_insn 0)) w_D3 32 /\ translated_ok_on (repaired (cfg_insn 0)) w_D13c 32.
Proof. split; vm_compute; reflexivity. Qed.

(* the four C widths *)
Definition cwidth (w : N) : Prop := w = 8%N \/ w = 16%N \/ w = 32%N \/ w = 64%N.

From RZ.proofs Require Import ExprCorrect.
(* explicit casts inside arbitrary pure expressions are covered by the expression theorem (the statement of
   props/C02.v): stated here again so that C03 has its own obligation; it says nothing cast-specific beyond that *)
Theorem C03_casts_correct_repaired :
  forall (cfg : config) (rw : regwidth) (IM : string -> bool) (E : cenv) (csub : csubs) xi V e st,
  cfg_fx cfg = all_fixes -> cfg_params cfg = [] -> macs_std (cfg_macros cfg) -> subs_ext (cfg_subs cfg) -> csub_ext csub -> xi_ok xi ->
  lst_ok IM V st -> pfrag rw IM V e ->
  exists pv st', lower_expr cfg e st = OK (IPure pv, st') /\ st_ext st st' /\ lst_ok IM V st' /\
    forall R rem, regs_le (st_regs st') R -> norem rem ->
    forall cs ms, rel IM E V cs ms -> imms_done IM E (st_imms st') cs ms ->
      exists ilv, eval rw ms [] (fin_pure R rem (pv_term pv)) = Some ilv /\ shape_pv pv ilv /\
        forall fuel cs' cv, ceval E csub xi fuel cs e = Some (cs', cv) -> cs' = cs /\ agrees pv cv ilv.
Proof. exact expr_correct_unconditional. Qed.
Print Assumptions C03_casts_correct_repaired.

(* OpTables.cast_il_exec (width and fill bit of the emitted CAST) = the elaboration of what Cast.il_exec emits, for all types and
   operands; gen/OpTablesGen.v is regenerated from Pures/Cast.py on every run (tools/vt/tr_optables.py) *)
From RZ.sem Require Import CBody.
From RZ.gen Require Import OpTablesGen.
From RZ.proofs Require Import OpTablesProofs.
Theorem C03_cast_table_is_the_compilers : forall target src x op t1 ib0 ic0 ib1 ic1 il0 v0 b,
  elab_text x b (cast_text op target src t1 ib0 ic0 ib1 ic1 il0 v0) = Some (cast_il_exec target src (il0 && (0 <=? v0)%Z) x).
Proof. exact cast_text_ok. Qed.
Print Assumptions C03_cast_table_is_the_compilers.
